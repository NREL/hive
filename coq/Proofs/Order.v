(* Proofs/Order.v — C01: results that are computed from a hash-ordered container do not depend on the order in which
   the container was enumerated, when (a) the elements are sorted by an injective key first, or (b) they are folded with an
   operation that commutes. *)
From Hive.Base Require Import Prelude.
From Hive.Model Require Import Types.
From Hive.Proofs Require Import Sorted.
From Coq Require Import Sorting.Permutation Sorting.Sorted.

Section Canon.
  Context {A : Type} (le : A -> A -> bool).
  Hypothesis le_total : forall a b, le a b = true \/ le b a = true.
  Hypothesis le_trans : forall a b c, le a b = true -> le b c = true -> le a c = true.

  (* two sorted lists with the same elements are equal, as soon as the order is antisymmetric on those elements
     (the sort key is injective: this is why the id tie-breakers in HIVE's sort keys matter) *)
  Lemma sorted_perm_unique (l1 l2 : list A) :
    (forall a b, In a l1 -> In b l1 -> le a b = true -> le b a = true -> a = b) ->
    sorted_by le l1 -> sorted_by le l2 -> Permutation l1 l2 -> l1 = l2.
  Proof.
    revert l2. induction l1 as [|x l1 IH]; intros l2 Anti S1 S2 P.
    - apply Permutation_nil in P. subst. reflexivity.
    - destruct l2 as [|y l2]; [apply Permutation_sym, Permutation_nil in P; discriminate|].
      inversion S1 as [|? ? S1' H1]; subst. inversion S2 as [|? ? S2' H2]; subst.
      rewrite Forall_forall in H1, H2.
      assert (x = y).
      { assert (Iy : In y (x :: l1)) by (apply (Permutation_in _ (Permutation_sym P)); left; reflexivity).
        assert (Ix : In x (y :: l2)) by (apply (Permutation_in _ P); left; reflexivity).
        destruct Iy as [E|Iy]; [exact E|]. destruct Ix as [E|Ix]; [symmetry; exact E|].
        apply Anti; [left; reflexivity|right; exact Iy|apply H1; exact Iy|apply H2; exact Ix]. }
      subst y. f_equal. apply IH; auto.
      + intros a b Ia Ib. apply Anti; right; assumption.
      + apply Permutation_cons_inv in P. exact P.
  Qed.

  Theorem sort_canonical (l1 l2 : list A) :
    (forall a b, In a l1 -> In b l1 -> le a b = true -> le b a = true -> a = b) ->
    Permutation l1 l2 -> sort_by le l1 = sort_by le l2.
  Proof.
    intros Anti P. apply sorted_perm_unique.
    - intros a b Ia Ib. apply Anti; apply (sort_by_In le); assumption.
    - apply sort_by_sorted; assumption.
    - apply sort_by_sorted; assumption.
    - rewrite (sort_by_perm le l1), (sort_by_perm le l2). exact P.
  Qed.
End Canon.

(* folding a commuting operation over a permuted enumeration gives the same result (independent-key map writes, any/all,
   set union, sums of rationals up to ==, "latest wins" over distinct keys) *)
Lemma comm_fold {A B} (f : B -> A -> B) (l1 l2 : list A) :
  (forall b x y, f (f b x) y = f (f b y) x) -> Permutation l1 l2 -> forall b, fold_left f l1 b = fold_left f l2 b.
Proof.
  intros C P. induction P; intro b; cbn; auto.
  - rewrite C. reflexivity.
  - rewrite IHP1. apply IHP2.
Qed.

(* the update order of perform_vehicle_state_updates is a function of the SET of vehicles: whatever enumeration of the
   vehicle map Python happened to produce, sorting by id and then by (enqueue_time, id) yields the model's order *)
Lemma by_id_antisym (a b : positive * Vehicle) : Pos.leb (fst a) (fst b) = true -> Pos.leb (fst b) (fst a) = true -> fst a = fst b.
Proof. apply pos_leb_antisym. Qed.
Theorem sorted_elements_canonical {A} (m : pmap A) (enum : list (positive * A)) :
  Permutation enum (PM.elements m) -> sort_by (fun a b => Pos.leb (fst a) (fst b)) enum = sorted_elements m.
Proof.
  intro P. unfold sorted_elements. apply sort_canonical; [intros; apply pos_leb_total|intros a b c; apply pos_leb_trans| |exact P].
  intros [k1 v1] [k2 v2] I1 I2 L1 L2. pose proof (pos_leb_antisym _ _ L1 L2) as E. cbn in E. subst k2.
  apply (Permutation_in _ P) in I1, I2. apply PM.elements_complete in I1, I2. congruence.
Qed.
