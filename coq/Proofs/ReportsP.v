(* Proofs/ReportsP.v — C19, the station-load and summary clauses on the model of the report consumers (Model/Reports.v):
   every station of the simulation and every station named by a charge event of the batch gets exactly one load record (a map
   key), nothing else does, and the record's energy is the sum of the batch's charge events there; after any sequence of batches
   the summary's request / cancellation counters are the numbers of add / cancel events of all batches and its distance the sum
   of all move events' distances. *)
From Hive.Base Require Import Prelude.
From Hive.Model Require Import Types Reports.
From Hive.Proofs Require Import Fleet.
Local Open Scope Q_scope.

Definition ev_load (e : Event) (sid : id) : Q := match e with EvCharge _ s _ _ en _ _ => if Pos.eqb s sid then en else 0 | _ => 0 end.
Fixpoint load_total (l : list Event) (sid : id) : Q := match l with [] => 0 | e :: t => ev_load e sid + load_total t sid end.
Definition charged_at (l : list Event) (sid : id) : Prop := exists v c et en p t, In (EvCharge v sid c et en p t) l.

Lemma charged_at_cons e l sid : charged_at (e :: l) sid <-> ev_stn e = Some sid \/ charged_at l sid.
Proof.
  unfold charged_at. cbn [In]. split.
  - intros (v & c & et & en & p & t & [->|I]); [left; reflexivity|right; repeat eexists; exact I].
  - intros [E|(v & c & et & en & p & t & I)].
    + destruct e; try discriminate E. injection E as ->. repeat eexists. left. reflexivity.
    + repeat eexists. right. exact I.
Qed.

Lemma load_add_get acc e sid : qget sid (load_add acc e) == qget sid acc + ev_load e sid.
Proof.
  destruct e; cbn; try lra. unfold qget. destruct (Pos.eqb_spec sid0 sid) as [->|N].
  - rewrite PM.gss. lra.
  - rewrite PM.gso by congruence. lra.
Qed.
Lemma fold_add_get l : forall acc sid, qget sid (fold_left load_add l acc) == qget sid acc + load_total l sid.
Proof. induction l as [|e l IH]; intros acc sid; cbn [fold_left load_total]; [lra|]. rewrite IH, load_add_get. lra. Qed.
Lemma load_add_key acc e sid : PM.find sid (load_add acc e) <> None <-> PM.find sid acc <> None \/ ev_stn e = Some sid.
Proof.
  destruct e; cbn; try (split; [auto|intros [H|E]; [exact H|discriminate]]). destruct (Pos.eq_dec sid0 sid) as [->|N].
  - rewrite PM.gss. split; [auto|congruence].
  - rewrite PM.gso by congruence. split; [auto|intros [H|E]; congruence].
Qed.
Lemma fold_add_key l : forall acc sid, PM.find sid (fold_left load_add l acc) <> None <-> PM.find sid acc <> None \/ charged_at l sid.
Proof.
  induction l as [|e l IH]; intros acc sid; cbn [fold_left].
  - split; [auto|]. intros [H|(v & c & et & en & p & t & [])]. exact H.
  - rewrite IH, load_add_key, charged_at_cons. apply or_assoc.
Qed.
Lemma load_fill_get acc k sid : qget sid (load_fill acc k) == qget sid acc.
Proof.
  unfold load_fill. destruct (PM.find k acc) eqn:F; [lra|]. unfold qget. destruct (Pos.eq_dec k sid) as [->|N].
  - rewrite PM.gss, F. lra.
  - rewrite PM.gso by congruence. lra.
Qed.
Lemma load_fill_key acc k sid : PM.find sid (load_fill acc k) <> None <-> (PM.find sid acc <> None \/ k = sid).
Proof.
  unfold load_fill. destruct (PM.find k acc) eqn:F.
  - split; [auto|]. intros [H|<-]; congruence.
  - destruct (Pos.eq_dec k sid) as [->|N].
    + rewrite PM.gss. split; [auto|congruence].
    + rewrite PM.gso by congruence. split; [auto|]. intros [H|E]; congruence.
Qed.
Lemma fold_fill_get ks : forall acc sid, qget sid (fold_left load_fill ks acc) == qget sid acc.
Proof. induction ks as [|k ks IH]; intros acc sid; cbn [fold_left]; [lra|]. rewrite IH. apply load_fill_get. Qed.
Lemma fold_fill_key ks : forall acc sid, PM.find sid (fold_left load_fill ks acc) <> None <-> (PM.find sid acc <> None \/ In sid ks).
Proof.
  induction ks as [|k ks IH]; intros acc sid; cbn [fold_left In]; [tauto|]. rewrite IH, load_fill_key. apply or_assoc.
Qed.

(* one record per station of the simulation or of a charge event, none for any other id; its energy is the batch's charge events there *)
Theorem station_load_is_sum_of_charge_events reports sids sid :
  (PM.find sid (station_loads reports sids) <> None <-> (In sid sids \/ charged_at reports sid)) /\
  qget sid (station_loads reports sids) == load_total reports sid.
Proof.
  unfold station_loads. split.
  - rewrite fold_fill_key, fold_add_key. rewrite PM.gempty. tauto.
  - rewrite fold_fill_get, fold_add_get. unfold qget. rewrite PM.gempty. lra.
Qed.

Fixpoint dist_total (l : list Event) : Q := match l with [] => 0 | e :: t => (match e with EvMove _ d _ => d | _ => 0 end) + dist_total t end.
Lemma dist_total_evsum l : dist_total l = evsum ev_dist l.
Proof. induction l as [|e l IH]; cbn; [|rewrite IH]; reflexivity. Qed.
Lemma dist_app a b : dist_total (a ++ b) == dist_total a + dist_total b.
Proof. rewrite !dist_total_evsum. apply evsum_app. Qed.
Lemma count_app p a b : count_ev p (a ++ b) = (count_ev p a + count_ev p b)%Z.
Proof. unfold count_ev. rewrite filter_app, app_length. lia. Qed.
Lemma vkt_fold l : forall a, fold_left vkt_add l a == a + dist_total l.
Proof. induction l as [|e l IH]; intro a; cbn [fold_left dist_total]; [lra|]. rewrite IH. destruct e; cbn; lra. Qed.
Theorem summary_counts_events batches : forall st,
  let st' := fold_left stats_handle batches st in
  st_requests st' = (st_requests st + count_ev is_add (concat batches))%Z /\
  st_cancelled st' = (st_cancelled st + count_ev is_cancel (concat batches))%Z /\
  st_vkt st' == st_vkt st + dist_total (concat batches).
Proof.
  induction batches as [|b bs IH]; intro st; cbn [fold_left concat]; cbv zeta.
  - unfold count_ev. cbn. repeat split; try lia. lra.
  - destruct (IH (stats_handle st b)) as (A & B & C). cbn [stats_handle st_requests st_cancelled st_vkt] in A, B, C.
    rewrite !count_app. split; [lia|]. split; [lia|].
    pose proof (vkt_fold b (st_vkt st)). pose proof (dist_app b (concat bs)). lra.
Qed.
