(* Proofs/AcctInv.v — C05 / C19 over whole histories: the reported events explain the books exactly.  Per vehicle the distances
   of its move events sum to the growth of its odometer, the energies of its charge events to the growth of energy_gained, and
   its balance moved by the fares of its pickups minus its charging payments; per station the balance grew by the payments of
   the charge events there and energy_dispensed (per energy type) by their energies.  Stated as a relation between any state
   and any later state (acct), composed along the macro steps; the theorem over histories instantiates it from the loaded
   state (empty log). *)
From Hive.Base Require Import Prelude.
From Hive.Model Require Import Types KernelBase SimOps States Step.
From Hive.Gen Require Import Kernels.
From Hive.Proofs Require Import SimFacts Writes Reach VehFrame Atomic Move Trip Energy Macro Count CountInv.
Local Open Scope Q_scope.

Definition ev_moved (e : Event) (vid : id) : Q := match e with EvMove v d _ => if Pos.eqb v vid then d else 0 | _ => 0 end.
Definition ev_charged (e : Event) (vid : id) : Q := match e with EvCharge v _ _ _ en _ _ => if Pos.eqb v vid then en else 0 | _ => 0 end.
Definition ev_paid (e : Event) (vid : id) : Q := match e with EvCharge v _ _ _ _ p _ => if Pos.eqb v vid then p else 0 | _ => 0 end.
Definition ev_fare (e : Event) (vid : id) : Q := match e with EvPickup _ v _ _ val => if Pos.eqb v vid then val else 0 | _ => 0 end.
Definition ev_recv (e : Event) (sid : id) : Q := match e with EvCharge _ s _ _ _ p _ => if Pos.eqb s sid then p else 0 | _ => 0 end.
Definition ev_disp (et : EnergyType) (e : Event) (sid : id) : Q :=
  match e with EvCharge _ s _ t en _ _ => if Pos.eqb s sid && etype_eqb t et then en else 0 | _ => 0 end.
Fixpoint total (f : Event -> id -> Q) (l : list Event) (k : id) : Q := match l with [] => 0 | e :: t => f e k + total f t k end.
Lemma total_app f a b k : total f (a ++ b) k == total f a k + total f b k.
Proof. induction a as [|e a IH]; cbn [app total]; [lra|]. rewrite IH. lra. Qed.

Definition vacct (evs : list Event) (k : id) (v v' : Vehicle) : Prop :=
  v_odo v' == v_odo v + total ev_moved evs k /\
  v_gained v' == v_gained v + total ev_charged evs k /\
  v_balance v' == v_balance v + total ev_fare evs k - total ev_paid evs k.
Definition sacct (evs : list Event) (k : id) (x x' : Station) : Prop :=
  s_balance x' == s_balance x + total ev_recv evs k /\
  s_disp_e x' == s_disp_e x + total (ev_disp Electric) evs k /\
  s_disp_g x' == s_disp_g x + total (ev_disp Gasoline) evs k.
Lemma vacct_refl k v : vacct [] k v v. Proof. unfold vacct; cbn; repeat split; lra. Qed.
Lemma sacct_refl k v : sacct [] k v v. Proof. unfold sacct; cbn; repeat split; lra. Qed.
Lemma vacct_trans e1 e2 k a b c : vacct e1 k a b -> vacct e2 k b c -> vacct (e2 ++ e1) k a c.
Proof. unfold vacct. intros (A1 & A2 & A3) (B1 & B2 & B3). pose proof (fun f => total_app f e2 e1 k) as T. repeat split; rewrite !T; lra. Qed.
Lemma sacct_trans e1 e2 k a b c : sacct e1 k a b -> sacct e2 k b c -> sacct (e2 ++ e1) k a c.
Proof. unfold sacct. intros (A1 & A2 & A3) (B1 & B2 & B3). pose proof (fun f => total_app f e2 e1 k) as T. repeat split; rewrite !T; lra. Qed.

(* the entities a book event names exist (so the per-entity sums regroup into fleet totals: Fleet.v) *)
Definition named (s : Sim) (e : Event) : Prop :=
  match e with
  | EvCharge v sid _ _ _ _ _ => find v (vehicles s) <> None /\ find sid (stations s) <> None
  | EvMove v _ _ => find v (vehicles s) <> None
  | EvPickup _ v _ _ _ => find v (vehicles s) <> None
  | _ => True
  end.
Definition dom_kept (s s' : Sim) : Prop :=
  (forall k, find k (vehicles s) = None -> find k (vehicles s') = None) /\ (forall k, find k (stations s) = None -> find k (stations s') = None).
Lemma named_back a b e : dom_kept a b -> named b e -> named a e.
Proof. intros (Dv & Ds) N. destruct e; cbn in *; auto; try (intro Z; apply N; apply Dv; exact Z). destruct N as (N1 & N2). split; intro Z; [apply N1, Dv|apply N2, Ds]; exact Z. Qed.
Definition acct (s s' : Sim) : Prop :=
  vkeys s -> skeys (stations s) ->
  vkeys s' /\ skeys (stations s') /\ exists evs, log s' = evs ++ log s /\
    (forall k v, find k (vehicles s) = Some v -> exists v', find k (vehicles s') = Some v' /\ vacct evs k v v') /\
    (forall k x, find k (stations s) = Some x -> exists x', find k (stations s') = Some x' /\ sacct evs k x x') /\
    dom_kept s s' /\ Forall (named s) evs.
(* every entry of m has a successor in m', R-related to it (R may look at the key), and no entry appears *)
Definition evolves {A} (key : A -> id) (R : id -> A -> A -> Prop) (m m' : pmap A) : Prop :=
  (keyed key m -> keyed key m') /\ (forall k, find k m = None -> find k m' = None) /\
  forall k v, find k m = Some v -> exists v', find k m' = Some v' /\ R k v v'.
Lemma evolves_same {A} key (R : id -> A -> A -> Prop) m : (forall k v, R k v v) -> evolves key R m m.
Proof. intro Rr. split; [auto|]. split; [auto|]. intros k v F. exists v. auto. Qed.
Lemma evolves_add {A} key (R : id -> A -> A -> Prop) m old w : find (key w) m = Some old -> R (key w) old w ->
  (forall k v, k <> key w -> R k v v) -> evolves key R m (PM.add (key w) w m).
Proof.
  intros F Rw Ro. split; [apply keyed_add|]. split; intro k; rewrite find_add; destruct (Pos.eqb_spec k (key w)) as [->|N].
  - congruence.
  - auto.
  - intros v Fk. rewrite F in Fk. inv Fk. eauto.
  - intros v Fk. eauto.
Qed.
Lemma acct_intro s s' evs : log s' = evs ++ log s -> Forall (named s) evs ->
  evolves v_id (vacct evs) (vehicles s) (vehicles s') -> evolves s_id (sacct evs) (stations s) (stations s') -> acct s s'.
Proof.
  intros L N (Kv & Dv & V) (Ks & Ds & S) K SK. split; [exact (Kv K)|]. split; [exact (Ks SK)|]. exists evs.
  split; [exact L|]. split; [exact V|]. split; [exact S|]. split; [split; assumption|exact N].
Qed.

Lemma acct_refl s : acct s s.
Proof. apply (acct_intro s s []); [reflexivity|constructor|apply evolves_same, vacct_refl|apply evolves_same, sacct_refl]. Qed.
Lemma acct_trans a b c : acct a b -> acct b c -> acct a c.
Proof.
  intros A B K SK. destruct (A K SK) as (K2 & SK2 & e1 & L1 & V1 & S1 & D1 & N1). destruct (B K2 SK2) as (K3 & SK3 & e2 & L2 & V2 & S2 & D2 & N2).
  split; [exact K3|]. split; [exact SK3|]. exists (e2 ++ e1). split; [rewrite L2, L1, app_assoc; reflexivity|]. split; [|split; [|split]]; cycle 2.
  - destruct D1, D2. split; auto.
  - apply Forall_app. split; [|exact N1]. eapply Forall_impl; [|exact N2]. intros e. apply named_back. exact D1.
  - intros k v F. destruct (V1 k v F) as (v1 & F1 & A1). destruct (V2 k v1 F1) as (v2 & F2 & A2). exists v2. split; [exact F2|eapply vacct_trans; eauto].
  - intros k v F. destruct (S1 k v F) as (v1 & F1 & A1). destruct (S2 k v1 F1) as (v2 & F2 & A2). exists v2. split; [exact F2|eapply sacct_trans; eauto].
Qed.

(* events of the other kinds say nothing about any book *)
Definition bookless (e : Event) : Prop := match e with EvMove _ _ _ | EvCharge _ _ _ _ _ _ _ | EvPickup _ _ _ _ _ => False | _ => True end.
Lemma bookless_silent e k : bookless e ->
  ev_moved e k = 0 /\ ev_charged e k = 0 /\ ev_paid e k = 0 /\ ev_fare e k = 0 /\ ev_recv e k = 0 /\ forall et, ev_disp et e k = 0.
Proof. destruct e; cbn; intro B; try contradiction; repeat split. Qed.
Lemma total_bookless f evs k : (forall e, bookless e -> f e k = 0) -> Forall bookless evs -> total f evs k == 0.
Proof. intros Hf. induction 1 as [|e evs B _ IH]; cbn; [lra|]. rewrite (Hf e B), IH. lra. Qed.
Lemma named_bookless s evs : Forall bookless evs -> Forall (named s) evs.
Proof. intro B. eapply Forall_impl; [|exact B]. intros e Be. destruct e; cbn in *; tauto. Qed.
Lemma vacct_bookless evs k v w : Forall bookless evs -> v_odo w = v_odo v -> v_gained w = v_gained v -> v_balance w = v_balance v -> vacct evs k v w.
Proof.
  intros B Ho Hg Hb. pose proof (fun f Hf => total_bookless f evs k Hf B) as Z. unfold vacct. rewrite Ho, Hg, Hb.
  rewrite !Z by (intros e Be; apply (bookless_silent e k Be)). repeat split; lra.
Qed.
Lemma sacct_bookless evs k x y : Forall bookless evs -> s_balance y = s_balance x -> s_disp_e y = s_disp_e x -> s_disp_g y = s_disp_g x -> sacct evs k x y.
Proof.
  intros B Hb He Hg. pose proof (fun f Hf => total_bookless f evs k Hf B) as Z. unfold sacct. rewrite Hb, He, Hg.
  rewrite !Z by (intros e Be; apply (bookless_silent e k Be)). repeat split; lra.
Qed.
Lemma acct_same s s' evs : vehicles s' = vehicles s -> stations s' = stations s -> log s' = evs ++ log s -> Forall bookless evs -> acct s s'.
Proof.
  intros V S L B. apply (acct_intro s s' evs); [exact L|apply named_bookless, B|rewrite V|rewrite S]; apply evolves_same; intros k x.
  - apply vacct_bookless; auto.
  - apply sacct_bookless; auto.
Qed.
Lemma plain_acct s s' : vehicles s' = vehicles s -> stations s' = stations s -> log s' = log s -> acct s s'.
Proof. intros V S L. eapply (acct_same s s' []); eauto. Qed.
Lemma emit_acct s e : bookless e -> acct s (emit s e).
Proof. intro B. apply (acct_same s _ [e]); auto. Qed.

Section A.
Variable env : Env.

Lemma modv_acct s w s' k old : modify_vehicle env s w = Ok s' -> find k (vehicles s) = Some old -> v_id w = v_id old ->
  v_odo w = v_odo old -> v_gained w = v_gained old -> v_balance w = v_balance old -> acct s s'.
Proof.
  intros M F Hi Ho Hg Hb K SK. assert (E : v_id w = k) by (rewrite Hi; apply K; exact F). revert K SK.
  apply modify_vehicle_spec in M. destruct M as (_ & V & S & _ & _ & _ & _ & _ & L).
  apply (acct_intro s s' []); [exact L|constructor|rewrite V|rewrite S; apply evolves_same, sacct_refl].
  apply (evolves_add v_id _ _ old w); [rewrite E; exact F|apply vacct_bookless; auto|intros; apply vacct_refl].
Qed.
Definition same_books (x y : Station) : Prop := s_id y = s_id x /\ s_balance y = s_balance x /\ s_disp_e y = s_disp_e x /\ s_disp_g y = s_disp_g x.
Lemma mods_acct s x s' k old : modify_station env s x = Ok s' -> find k (stations s) = Some old -> same_books old x -> acct s s'.
Proof.
  intros M F (Hi & Hb & He & Hg) K SK. assert (E : s_id x = k) by (rewrite Hi; apply SK; exact F). revert K SK.
  apply modify_station_spec in M. destruct M as (_ & S & V & _ & _ & _ & _ & _ & L).
  apply (acct_intro s s' []); [exact L|constructor|rewrite V; apply evolves_same, vacct_refl|rewrite S].
  apply (evolves_add s_id _ _ old x); [rewrite E; exact F|apply sacct_bookless; auto|intros; apply sacct_refl].
Qed.
Lemma anvs_acct s vid st s' : apply_new_vehicle_state env s vid st = Ok s' -> acct s s'.
Proof. unfold apply_new_vehicle_state. intro H. dmatch H. eapply modv_acct; eauto. Qed.
Lemma modb_acct s x s' : modify_base env s x = Ok s' -> acct s s'.
Proof. intro M. apply modify_base_spec in M. destruct M as (_ & _ & V & S & _ & _ & _ & _ & L). apply plain_acct; auto. Qed.
Lemma modr_acct s x s' : modify_request env s x = Ok s' -> acct s s'.
Proof. intro M. apply modify_request_spec in M. destruct M as (_ & _ & V & S & _ & _ & _ & _ & L). apply plain_acct; auto. Qed.

Lemma ssu_books stn cid op stn' : station_state_update stn cid op = Ok stn' -> same_books stn stn'.
Proof. unfold station_state_update. intro H. repeat dmatch H; inv H; repeat split. Qed.
Lemma ssou_books stn cid op stn' : station_state_optional_update stn cid op = Ok stn' -> same_books stn stn'.
Proof. unfold station_state_optional_update. intro H. repeat dmatch H; inv H; repeat split. Qed.

Lemma exit_acct vs nx s s1 : vs_exit env vs nx s = Ok s1 -> acct s s1.
Proof.
  destruct vs as [vid st]. intro H.
  destruct (exit_cases env _ _ _ _ _ H) as [st _ _|rid rt r s1 _ M|sid cid stn stn' s1 F R M|sid cid t stn stn' s1 F R M|bid b b' s1 _ _ M
                                           |bid cid b b' sid stn stn' s2 s1 _ _ Fs _ Mb C Ms].
  - apply acct_refl.
  - eapply modr_acct; eauto.
  - eapply mods_acct; eauto using ssu_books.
  - eapply mods_acct; eauto using ssu_books.
  - eapply modb_acct; eauto.
  - pose proof (modify_base_spec _ _ _ _ Mb) as (_ & _ & _ & Sa & _). rewrite <- Sa in Fs.
    eapply acct_trans; [eapply modb_acct; eauto|eapply mods_acct; eauto using ssu_books].
Qed.

(* the fare of the trip is booked with the pickup event *)
Lemma pickup_acct s vid rid s' : pick_up_trip env s vid rid = Ok s' -> acct s s'.
Proof.
  intros H K SK. apply pick_up_trip_spec in H. destruct H as (v & r & Fv & Fr & V & _ & L & S & _).
  assert (Hid : v_id v = vid) by (apply K; exact Fv). revert K SK.
  eapply (acct_intro s s' [_]); [exact L|constructor; [cbn; congruence|constructor]|rewrite V|rewrite S].
  - apply (evolves_add v_id _ _ v (veh_receive_payment v (r_value r))); [cbn; rewrite Hid; exact Fv| |]; cbn; rewrite Hid.
    + unfold vacct. cbn. rewrite Pos.eqb_refl. repeat split; lra.
    + intros k x N. unfold vacct. cbn. rewrite (proj2 (Pos.eqb_neq vid k)) by congruence. repeat split; lra.
  - apply evolves_same. intros k x. unfold sacct. cbn. repeat split; lra.
Qed.

Lemma enter_acct vs s1 s' : vs_enter env vs s1 = Ok s' -> acct s1 s'.
Proof.
  destruct vs as [vid nx]. intro H.
  destruct (enter_cases env _ _ _ _ H) as [nx s' _ A|rid rt r s2 s' _ M A|q d rt s2 s' P A|nx sid cid stn stn' s2 s' _ F C M A|sid cid t stn stn' s2 s' F Q M A
                                          |bid b b' s2 s' _ _ M A|bid cid b b' sid stn stn' s2 s3 s' _ _ Fs _ C Mb Ms A];
    (eapply acct_trans; [|eapply anvs_acct; exact A]).
  - apply acct_refl.
  - eapply modr_acct; eauto.
  - eapply pickup_acct; eauto.
  - eapply mods_acct; eauto using ssou_books.
  - eapply mods_acct; eauto using ssu_books.
  - eapply modb_acct; eauto.
  - pose proof (modify_base_spec _ _ _ _ Mb) as (_ & _ & _ & Sa & _). rewrite <- Sa in Fs.
    eapply acct_trans; [eapply modb_acct; eauto|eapply mods_acct; eauto using ssou_books].
Qed.
Lemma transition_acct s p n s' : transition env s p n = Ok s' -> acct s s'.
Proof. intro T. apply transition_ok_iff in T. destruct T as (s1 & X & N). eapply acct_trans; [eapply exit_acct; eauto|eapply enter_acct; eauto]. Qed.

Lemma go_out_acct s vid v s' : find vid (vehicles s) = Some v -> go_out_of_service_on_empty env s vid = Ok s' -> acct s s'.
Proof.
  intros Fv H. destruct (go_out_cases env _ _ _ _ Fv H) as (s1 & X & A). eapply acct_trans; [|eapply anvs_acct; exact A].
  destruct X as [X| ->]; [eapply exit_acct; exact X|apply acct_refl].
Qed.
(* the move event reports the growth of the odometer of the record written with it *)
Lemma move_acct s vid s' : move env s vid = Ok s' -> acct s s'.
Proof.
  intro H. destruct (move_cases env _ _ _ H) as (v & m & route & tr & Fv & _ & _ & _ & [(_ & M)|[(_ & G)|(e0 & w & _ & _ & Ew & M)]]).
  - eapply modv_acct; eauto.
  - eapply go_out_acct; eauto.
  - intros K SK. assert (Hid : v_id v = vid) by (apply K; exact Fv). revert K SK.
    destruct (mech_consume_frame m v (rt_exp tr)) as (Ci & _ & _ & _ & Cg & _ & _ & Cb & _).
    assert (W : v_id w = vid /\ v_gained w = v_gained v /\ v_balance w = v_balance v) by (subst w; cbn; repeat split; congruence).
    destruct W as (Wi & Wg & Wb). clear Ew.
    apply modify_vehicle_spec in M. destruct M as (_ & V & S & _ & _ & _ & _ & _ & L). cbn in V, S, L.
    eapply (acct_intro s s' [_]); [exact L|constructor; [cbn; congruence|constructor]|rewrite V|rewrite S].
    + apply (evolves_add v_id _ _ v w); rewrite Wi; [exact Fv| |].
      * unfold vacct. cbn. rewrite Pos.eqb_refl, Wg, Wb. repeat split; lra.
      * intros k x N. unfold vacct. cbn. rewrite (proj2 (Pos.eqb_neq vid k)) by congruence. repeat split; lra.
    + apply evolves_same. intros k x. unfold sacct. cbn. repeat split; lra.
Qed.

(* the charge event reports what the vehicle gained and paid and what the station received and dispensed *)
Lemma charge_acct s vid sid cid s' : charge env s vid sid cid = Ok s' -> acct s s'.
Proof.
  intros H K SK. destruct (charge_ledger env s vid sid cid s' H) as (v & st & m & c & v1 & Fv & Fs & _ & _ & Ev1 & L).
  cbv zeta in L. destruct L as (V & S & Lg & _ & _).
  destruct (mech_add_energy_frame m v c (dt s)) as (Ei & _ & _ & _ & _ & _ & _ & Eb & Eo). pose proof (mech_add_energy_gained m v c (dt s)) as Eg.
  cbv zeta in Eg. rewrite <- Ev1 in Ei, Eo, Eb, Eg.
  assert (Hvid : v_id v = vid) by (apply K; exact Fv). assert (Hsid : s_id st = sid) by (apply SK; exact Fs). revert K SK.
  eapply (acct_intro s s' [_]); [exact Lg|constructor; [cbn; split; congruence|constructor]|rewrite V|rewrite S].
  - apply (evolves_add v_id _ _ v); cbn; rewrite Ei, Hvid; [exact Fv| |].
    + unfold vacct. cbn. rewrite Pos.eqb_refl, Eo, Eb. repeat split; lra.
    + intros k x N. unfold vacct. cbn. rewrite (proj2 (Pos.eqb_neq vid k)) by congruence. repeat split; lra.
  - match goal with |- evolves _ _ _ (PM.add _ (tick_energy_dispensed (station_receive_payment _ ?p) ?et ?q) _) => pose proof (proj1 (charged_station_sim st p et q)) as Es end.
    apply (evolves_add s_id _ _ st); rewrite Es, Hsid; [exact Fs| |].
    + unfold sacct. cbn. rewrite Pos.eqb_refl. destruct (c_etype c); cbn; repeat split; lra.
    + intros k x N. unfold sacct. cbn. rewrite (proj2 (Pos.eqb_neq sid k)) by congruence. cbn. repeat split; lra.
Qed.

Lemma perform_acct vid st s s' : perform_update env vid st s = Ok s' -> acct s s'.
Proof.
  destruct st; cbn [perform_update]; intro H; try (eapply move_acct; eauto; fail); try (inv H; apply acct_refl).
  - repeat dmatch H. destruct (mech_idle_frame m v (dt s)) as (Ei & _ & _ & _ & Eg & _ & _ & Eb & Eo). eapply modv_acct; eauto.
  - destruct (servicing_update_cases env s vid req departure route s' H) as (a & M & [->|(w & q' & d' & g & t & _ & _ & ->)]); [eapply move_acct; exact M|].
    eapply acct_trans; [eapply move_acct; exact M|apply emit_acct; exact I].
  - apply charge_unless_full_cases in H. destruct H as [->|H]; [apply acct_refl|eapply charge_acct; eauto].
  - repeat dmatch H. destruct (mech_idle_frame m v (dt s)) as (Ei & _ & _ & _ & Eg & _ & _ & Eb & Eo). eapply modv_acct; eauto.
  - repeat dmatch H. eapply charge_acct; eauto.
Qed.

Lemma cancel_acct s rid : acct s (cancel_one env s rid).
Proof.
  destruct (cancel_one_cases env s rid) as [->|(r & a & _ & _ & R & ->)]; [apply acct_refl|].
  apply remove_request_spec in R. destruct R as (_ & V & S & _ & _ & _ & _ & L).
  eapply acct_trans; [apply plain_acct; eassumption|apply emit_acct; exact I].
Qed.
Lemma admit_acct s r : acct s (admit_request env s r).
Proof.
  destruct (admit_request_cases env s r) as [->|(a & E & ->)]; [apply acct_refl|].
  apply add_request_spec in E. destruct E as (_ & V & S & _ & _ & _ & _ & L).
  eapply acct_trans; [apply plain_acct; eassumption|apply emit_acct; exact I].
Qed.
Lemma station_update_prices_books prices : forall st, same_books st (station_update_prices st prices).
Proof.
  unfold station_update_prices. induction prices as [|cp ps IH]; intro st; cbn [fold_left]; [repeat split|].
  destruct (IH (match find (fst cp) (s_state st) with Some cs => st <| s_state := PM.add (fst cp) (price_set cs (snd cp)) (s_state st) |> | None => st end)) as (A & B & C & D).
  destruct (find (fst cp) (s_state st)); cbn in *; repeat split; congruence.
Qed.
Lemma price_acct s sid prices : acct s (update_station_prices env s sid prices).
Proof.
  destruct (update_station_prices_cases env s sid prices) as [->|(st & F & M)]; [apply acct_refl|].
  eapply mods_acct; eauto using station_update_prices_books.
Qed.
Lemma driver_acct rt s v s' : driver_update env rt s v = Ok s' -> acct s s'.
Proof.
  intro H. destruct (driver_update_cases env rt s v s' H) as [->|(on & cur & dr & F & M)]; [apply acct_refl|].
  eapply acct_trans; [|eapply (modv_acct _ _ _ _ cur M); try reflexivity; exact F]. apply emit_acct. exact I.
Qed.

Lemma mstep_acct s s' : MStep env s s' -> acct s s'.
Proof.
  intro M. destruct M.
  - eapply transition_acct; eauto.
  - eapply perform_acct; eauto.
  - apply cancel_acct.
  - apply admit_acct.
  - apply price_acct.
  - eapply driver_acct; eauto.
  - destruct H as (V & S & _). apply plain_acct; auto.
  - apply plain_acct; reflexivity.
  - eapply acct_trans; [eapply transition_acct; eauto|eapply perform_acct; eauto].
Qed.

(* over every finite history, any controller: the books of the final state are the books of the first state plus what the
   events filed in between say *)
Theorem acct_over_histories ops : forall s0, vkeys s0 -> skeys (stations s0) -> Forall op_ok ops -> acct s0 (fold_left (step_op env) ops s0).
Proof.
  intros s0 K _ Hok. apply (history_invariant env (acct s0)); [|exact K|apply acct_refl|exact Hok].
  intros s s' _ A M. eapply acct_trans; [exact A|apply mstep_acct; exact M].
Qed.

(* from a freshly loaded state (nothing filed yet): the whole log explains the books *)
Theorem books_over_histories ops s0 : vkeys s0 -> skeys (stations s0) -> Forall op_ok ops -> log s0 = [] ->
  let s := fold_left (step_op env) ops s0 in
  (forall k v0, find k (vehicles s0) = Some v0 -> exists v, find k (vehicles s) = Some v /\ vacct (log s) k v0 v) /\
  (forall k x0, find k (stations s0) = Some x0 -> exists x, find k (stations s) = Some x /\ sacct (log s) k x0 x).
Proof.
  intros K SK Hok L0. cbv zeta. destruct (acct_over_histories ops s0 K SK Hok K SK) as (_ & _ & evs & L & V & S & _).
  rewrite L0, app_nil_r in L. rewrite L. auto.
Qed.
End A.
