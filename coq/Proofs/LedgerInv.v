(* Proofs/LedgerInv.v — C03 over whole histories, read off the event log: replaying the log (request_added / pickup /
   cancel events, oldest first) gives every request id a status; the invariant says (1) a request is in the waiting map exactly
   when its status is Waiting, and (2) every pickup and every cancellation in the log happened to a request that was Waiting at
   that moment.  Hence per admission at most one of pickup / cancel, never both, never twice, and a request leaves the waiting
   map only through one of the two events (nothing vanishes without a trace). *)
From Hive.Base Require Import Prelude.
From Hive.Model Require Import Types KernelBase SimOps States Step.
From Hive.Gen Require Import Kernels.
From Hive.Proofs Require Import SimFacts Writes Reach VehFrame Atomic Trip Move Macro.

Inductive rstatus := Unknown | Waiting | PickedUp | Cancelled.
Definition ev_status (e : Event) (rid : id) (cur : rstatus) : rstatus :=
  match e with
  | EvAdd r _ => if Pos.eqb r rid then Waiting else cur
  | EvPickup r _ _ _ _ => if Pos.eqb r rid then PickedUp else cur
  | EvCancel r _ _ => if Pos.eqb r rid then Cancelled else cur
  | _ => cur
  end.
(* the log is newest first *)
Fixpoint status (init : id -> rstatus) (l : list Event) (rid : id) : rstatus :=
  match l with [] => init rid | e :: t => ev_status e rid (status init t rid) end.
Fixpoint wf (init : id -> rstatus) (l : list Event) : Prop :=
  match l with
  | [] => True
  | e :: t => wf init t /\ match e with
                           | EvPickup r _ _ _ _ | EvCancel r _ _ => status init t r = Waiting
                           | _ => True
                           end
  end.
Definition neutral (e : Event) : Prop := match e with EvAdd _ _ | EvPickup _ _ _ _ _ | EvCancel _ _ _ => False | _ => True end.
Definition Inv_ledger (init : id -> rstatus) (s : Sim) : Prop :=
  wf init (log s) /\ forall rid, find rid (requests s) <> None <-> status init (log s) rid = Waiting.
Lemma status_neutral init rid e l : neutral e -> status init (e :: l) rid = status init l rid.
Proof. destruct e; cbn; intro N; try contradiction; reflexivity. Qed.
Lemma wf_neutral init e l : neutral e -> wf init l -> wf init (e :: l).
Proof. destruct e; cbn; intros N W; try contradiction; auto. Qed.

(* the log grew by events of class P; what each such event preserves is preserved *)
Definition log_ext (P : Event -> Prop) (s s' : Sim) : Prop := exists evs, log s' = evs ++ log s /\ Forall P evs.
Lemma log_ext_refl (P : Event -> Prop) s : log_ext P s s.
Proof. exists []. auto. Qed.
Lemma log_ext_trans (P : Event -> Prop) a b c : log_ext P a b -> log_ext P b c -> log_ext P a c.
Proof. intros (e1 & L1 & N1) (e2 & L2 & N2). exists (e2 ++ e1). rewrite L2, L1, app_assoc. split; [reflexivity|apply Forall_app; auto]. Qed.
Lemma log_ext_same (P : Event -> Prop) s s' : log s' = log s -> log_ext P s s'.
Proof. intro L. exists []. auto. Qed.
Lemma log_ext_emit (P : Event -> Prop) s e s' : P e -> log s' = e :: log s -> log_ext P s s'.
Proof. intros N L. exists [e]. auto. Qed.
Lemma log_ext_preserves (P : Event -> Prop) (w : list Event -> Prop) s s' : (forall e l, P e -> w l -> w (e :: l)) -> log_ext P s s' -> w (log s) -> w (log s').
Proof. intros Hw (evs & -> & F) W. induction F; cbn; auto. Qed.
Lemma log_ext_fold {X} (P : Event -> Prop) (f : list Event -> X) s s' : (forall e l, P e -> f (e :: l) = f l) -> log_ext P s s' -> f (log s') = f (log s).
Proof. intros Hf Q. apply (log_ext_preserves P (fun l => f l = f (log s)) s s'); [|exact Q|reflexivity]. intros e l N <-. apply Hf, N. Qed.
(* a function of the model files only the events its walk through Writes.v allows *)
Lemma Writes_log_ext env V (E P : Event -> Prop) A T s s' : (forall e, E e -> P e) -> Writes env V E A T s s' -> log_ext P s s'.
Proof.
  intro HE. apply Writes_lift; [apply log_ext_refl|apply log_ext_trans|]. clear s s'. intros s s' W.
  destruct (Write_log _ _ _ _ _ _ _ W) as [L|(e & He & L)]; [apply log_ext_same; exact L|eapply log_ext_emit; eauto].
Qed.

Definition closes (e : Event) (rid : id) : Prop :=
  match e with EvPickup r _ _ _ _ | EvCancel r _ _ => r = rid | _ => False end.
Definition adds (e : Event) (rid : id) : Prop := match e with EvAdd r _ => r = rid | _ => False end.
Lemma status_closed_stays init l2 : forall l1 rid, status init l1 rid = PickedUp \/ status init l1 rid = Cancelled ->
  (forall e, In e l2 -> ~ adds e rid) -> wf init (l2 ++ l1) -> (forall e, In e l2 -> ~ closes e rid) /\
  (status init (l2 ++ l1) rid = PickedUp \/ status init (l2 ++ l1) rid = Cancelled).
Proof.
  induction l2 as [|e l2 IH]; intros l1 rid C NA W; cbn; [split; [intros e []|exact C]|].
  cbn in W. destruct W as [W He]. destruct (IH l1 rid C (fun x I => NA x (or_intror I)) W) as [NC C2]. split.
  - intros x [<-|I]; [|apply NC; exact I]. intro Cl. destruct e; cbn in Cl; try contradiction; subst; rewrite He in C2; destruct C2; discriminate.
  - specialize (NA e (or_introl eq_refl)). destruct e; cbn [ev_status]; try exact C2;
      match goal with |- context [Pos.eqb ?a ?b] => destruct (Pos.eqb_spec a b) as [->|]; auto end.
    destruct (NA eq_refl).
Qed.
(* after a pickup (or a cancellation) of rid, no further pickup or cancellation of rid unless rid is admitted again in between *)
Theorem closed_once init l2 e1 l1 rid : wf init (l2 ++ e1 :: l1) -> closes e1 rid -> (forall e, In e l2 -> ~ adds e rid) ->
  forall e, In e l2 -> ~ closes e rid.
Proof.
  intros W C NA. assert (St : status init (e1 :: l1) rid = PickedUp \/ status init (e1 :: l1) rid = Cancelled)
    by (destruct e1; cbn in C; try contradiction; subst; cbn; rewrite Pos.eqb_refl; auto).
  exact (proj1 (status_closed_stays init l2 (e1 :: l1) rid St NA W)).
Qed.

Section L.
Variable env : Env.

(* a step that neither admits nor closes a request: same waiting ids, only neutral events filed *)
Definition quiet (s s' : Sim) : Prop :=
  (forall rid, find rid (requests s') = None <-> find rid (requests s) = None) /\ log_ext neutral s s'.
Lemma quiet_refl s : quiet s s.
Proof. split; [tauto|apply log_ext_refl]. Qed.
Lemma quiet_trans a b c : quiet a b -> quiet b c -> quiet a c.
Proof. intros [R1 L1] [R2 L2]. split; [intro rid; rewrite R2; apply R1|eapply log_ext_trans; eauto]. Qed.
Lemma quiet_same s s' : requests s' = requests s -> log s' = log s -> quiet s s'.
Proof. intros R L. split; [rewrite R; tauto|apply log_ext_same; exact L]. Qed.
Lemma quiet_emit s e s' : neutral e -> requests s' = requests s -> log s' = e :: log s -> quiet s s'.
Proof. intros N R L. split; [rewrite R; tauto|eapply log_ext_emit; eauto]. Qed.
Lemma quiet_ledger init s s' : quiet s s' -> Inv_ledger init s -> Inv_ledger init s'.
Proof.
  intros [R Q] [W I]. split; [exact (log_ext_preserves neutral (wf init) s s' (wf_neutral init) Q W)|].
  intro rid. rewrite (log_ext_fold neutral (fun l => status init l rid) s s' (status_neutral init rid) Q), <- I, R. tauto.
Qed.
Lemma close_ledger init rid e s s' : closes e rid -> find rid (requests s) <> None -> requests s' = PM.remove rid (requests s) ->
  log s' = e :: log s -> Inv_ledger init s -> Inv_ledger init s'.
Proof.
  intros C F R L [W I]. unfold Inv_ledger. rewrite L, R. split.
  - split; [exact W|]. destruct e; cbn in C; try contradiction; subst; apply I, F.
  - intro k. rewrite find_remove. destruct (Pos.eqb_spec k rid) as [->|N].
    + destruct e; cbn in C; try contradiction; subst; cbn; rewrite Pos.eqb_refl; (split; [intro X; destruct (X eq_refl)|discriminate]).
    + rewrite (I k). destruct e; cbn in C; try contradiction; subst; cbn; destruct (Pos.eqb_spec rid k); try congruence; tauto.
Qed.

Lemma modv_quiet s v s' : modify_vehicle env s v = Ok s' -> quiet s s'.
Proof. intro H. apply modify_vehicle_spec in H. destruct H as (_ & _ & _ & _ & R & _ & _ & _ & L). apply quiet_same; auto. Qed.
Lemma mods_quiet s v s' : modify_station env s v = Ok s' -> quiet s s'.
Proof. intro H. apply modify_station_spec in H. destruct H as (_ & _ & _ & _ & R & _ & _ & _ & L). apply quiet_same; auto. Qed.
Lemma modb_quiet s v s' : modify_base env s v = Ok s' -> quiet s s'.
Proof. intro H. apply modify_base_spec in H. destruct H as (_ & _ & _ & _ & R & _ & _ & _ & L). apply quiet_same; auto. Qed.
Lemma modr_quiet s r s' : modify_request env s r = Ok s' -> quiet s s'.
Proof.
  intro H. apply modify_request_spec in H. destruct H as ((old & F) & R & _ & _ & _ & _ & _ & _ & L). split; [|apply log_ext_same; exact L].
  intro rid. rewrite R, find_add. destruct (Pos.eqb_spec rid (r_id r)) as [->|_]; [rewrite F; split; discriminate|tauto].
Qed.
Lemma anvs_quiet s vid st s' : apply_new_vehicle_state env s vid st = Ok s' -> quiet s s'.
Proof. unfold apply_new_vehicle_state. intro H. dmatch H. eapply modv_quiet; eauto. Qed.

Lemma exit_quiet vs nx s s1 : vs_exit env vs nx s = Ok s1 -> quiet s s1.
Proof.
  destruct vs as [vid st]. intro H. destruct (exit_cases env _ _ _ _ _ H).
  - apply quiet_refl.
  - eapply modr_quiet; eassumption.
  - eapply mods_quiet; eassumption.
  - eapply mods_quiet; eassumption.
  - eapply modb_quiet; eassumption.
  - eapply quiet_trans; [eapply modb_quiet|eapply mods_quiet]; eassumption.
Qed.

(* enter: the last write, of the vehicle's state, is quiet, and so is what comes before it, except for ServicingTrip, which picks the request up *)
Lemma enter_ledger init vid nx s1 s' : vs_enter env (vid, nx) s1 = Ok s' -> Inv_ledger init s1 -> Inv_ledger init s'.
Proof.
  intros H I. destruct (enter_cases env _ _ _ _ H) as [| |q d rt a s' P A| | | |]; (eapply quiet_ledger; [eapply anvs_quiet; eassumption|]).
  - exact I.
  - eapply quiet_ledger; [eapply modr_quiet; eassumption|exact I].
  - apply pick_up_trip_spec in P. destruct P as (pv & pr & _ & Fr & _ & R & L & _).
    eapply close_ledger; [|rewrite Fr; discriminate|exact R|exact L|exact I]. reflexivity.
  - eapply quiet_ledger; [eapply mods_quiet; eassumption|exact I].
  - eapply quiet_ledger; [eapply mods_quiet; eassumption|exact I].
  - eapply quiet_ledger; [eapply modb_quiet; eassumption|exact I].
  - eapply quiet_ledger; [eapply mods_quiet; eassumption|]. eapply quiet_ledger; [eapply modb_quiet; eassumption|exact I].
Qed.
Lemma transition_ledger init s p n s' : transition env s p n = Ok s' -> Inv_ledger init s -> Inv_ledger init s'.
Proof.
  intros T I. apply transition_ok_iff in T. destruct T as (s1 & X & N). destruct n as [vid nx].
  eapply enter_ledger; [exact N|]. eapply quiet_ledger; [eapply exit_quiet; exact X|exact I].
Qed.

Lemma go_out_quiet s vid s' : go_out_of_service_on_empty env s vid = Ok s' -> quiet s s'.
Proof.
  unfold go_out_of_service_on_empty. destruct (find vid (vehicles s)) as [v|]; [|apply anvs_quiet].
  destruct (vs_exit env (vid, v_state v) (vid, OutOfService) s) as [s1| |] eqn:X; intro H; try (eapply anvs_quiet; eauto; fail).
  eapply quiet_trans; [eapply exit_quiet; eauto|eapply anvs_quiet; eauto].
Qed.
Lemma emit_modv_quiet s e w s' : neutral e -> modify_vehicle env (emit s e) w = Ok s' -> quiet s s'.
Proof. intros N M. eapply quiet_trans; [apply (quiet_emit s e (emit s e) N); reflexivity|eapply modv_quiet; exact M]. Qed.
Lemma move_quiet s vid s' : move env s vid = Ok s' -> quiet s s'.
Proof.
  intro H. destruct (move_cases env _ _ _ H) as (v & m & route & tr & _ & _ & _ & _ & [(_ & M)|[(_ & G)|(e0 & w & _ & _ & _ & M)]]).
  - eapply modv_quiet; eauto.
  - eapply go_out_quiet; eauto.
  - eapply emit_modv_quiet; [|exact M]. exact I.
Qed.
Lemma charge_quiet s vid sid cid s' : charge env s vid sid cid = Ok s' -> quiet s s'.
Proof.
  intro H. destruct (charge_ledger env _ _ _ _ _ H) as (? & ? & ? & ? & ? & _ & _ & _ & _ & _ & L). cbv zeta in L.
  destruct L as (_ & _ & Lg & R & _). eapply quiet_emit; eauto. exact I.
Qed.
Lemma perform_quiet vid st s s' : perform_update env vid st s = Ok s' -> quiet s s'.
Proof.
  destruct st; intro H; try (eapply move_quiet; exact H); try (cbn [perform_update] in H; injection H as <-; apply quiet_refl).
  - cbn [perform_update] in H. repeat dmatch H. eapply modv_quiet; eauto.
  - destruct (servicing_update_cases env _ _ _ _ _ _ H) as (a & M & [->|(w & q' & d' & g & t & _ & _ & ->)]); [eapply move_quiet; exact M|].
    eapply quiet_trans; [eapply move_quiet; exact M|]. apply (quiet_emit a (EvDropoff (r_id req) vid g t)); [exact I|reflexivity|reflexivity].
  - destruct (charge_unless_full_cases env _ _ _ _ _ H) as [->|C]; [apply quiet_refl|eapply charge_quiet; eauto].
  - cbn [perform_update] in H. repeat dmatch H. eapply modv_quiet; eauto.
  - cbn [perform_update] in H. repeat dmatch H. eapply charge_quiet; eauto.
Qed.

Lemma cancel_ledger init s rid : Inv_ledger init s -> Inv_ledger init (cancel_one env s rid).
Proof.
  intro I. destruct (cancel_one_spec env s rid) as [->|(r & F & _ & R & L & _)]; [exact I|].
  eapply close_ledger; [|rewrite F; discriminate|exact R|exact L|exact I]. reflexivity.
Qed.
Lemma admit_ledger init s r : Inv_ledger init s -> Inv_ledger init (admit_request env s r).
Proof.
  intros [W I]. destruct (admit_request_cases env s r) as [->|(a & Ad & ->)]; [split; assumption|].
  apply add_request_spec in Ad. destruct Ad as (R & _ & _ & _ & _ & _ & _ & L). unfold Inv_ledger. cbn. rewrite L, R. split; [auto|].
  intro k. rewrite find_add, Pos.eqb_sym. destruct (Pos.eqb (r_id r) k); [split; [reflexivity|discriminate]|apply I].
Qed.
Lemma price_quiet s sid prices : quiet s (update_station_prices env s sid prices).
Proof. destruct (update_station_prices_cases env s sid prices) as [->|(st & _ & M)]; [apply quiet_refl|eapply mods_quiet; exact M]. Qed.
Lemma driver_quiet rt s v s' : driver_update env rt s v = Ok s' -> quiet s s'.
Proof.
  intro H. destruct (driver_update_cases env _ _ _ _ H) as [->|(on & cur & dr & _ & M)]; [apply quiet_refl|]. eapply emit_modv_quiet; [|exact M]. exact I.
Qed.

Lemma mstep_ledger init s s' : vkeys s -> Inv_ledger init s -> MStep env s s' -> Inv_ledger init s'.
Proof.
  apply (mstep_cases env (Inv_ledger init)).
  - intros a vid st nx b _ I _ _ T. eapply transition_ledger; eauto.
  - intros a vid st b _ I _ P. eapply quiet_ledger; [eapply perform_quiet; eauto|exact I].
  - intros a rid. apply cancel_ledger.
  - intros a r _. apply admit_ledger.
  - intros a sid prices. apply quiet_ledger, price_quiet.
  - intros rt a v b _ I D. eapply quiet_ledger; [eapply driver_quiet; eauto|exact I].
  - intros a b (_ & _ & _ & R & _) L. apply quiet_ledger, quiet_same; assumption.
  - intros a I. exact I.
Qed.

Theorem ledger_invariant init ops : forall s0, vkeys s0 -> Inv_ledger init s0 -> Forall op_ok ops ->
  vkeys (fold_left (step_op env) ops s0) /\ Inv_ledger init (fold_left (step_op env) ops s0).
Proof. apply (history_invariant env (Inv_ledger init)). apply mstep_ledger. Qed.

(* the start of a run: nothing filed yet, the requests already loaded count as waiting *)
Definition init_of (s0 : Sim) (rid : id) : rstatus := match find rid (requests s0) with Some _ => Waiting | None => Unknown end.
Lemma Inv_ledger_initial s0 : log s0 = [] -> Inv_ledger (init_of s0) s0.
Proof.
  intro L. unfold Inv_ledger. rewrite L. cbn. split; [exact I|]. intro rid. unfold init_of. destruct (find rid (requests s0)); split; congruence.
Qed.
End L.
