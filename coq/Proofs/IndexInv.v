(* Proofs/IndexInv.v — C08 lifted to every operation: the step alphabet (through the frame theorem of Reach.v)
   and the raw add / modify / remove / pop entry points. *)
From Hive.Base Require Import Prelude.
From Hive.Model Require Import Types KernelBase SimOps States Step Harness.
From Hive.Gen Require Import Kernels.
From Hive.Proofs Require Import Index Reach.

Section S.
Variable env : Env.

Lemma same_entities_idx s s' : same_entities s s' -> Inv_idx env s -> Inv_idx env s'.
Proof. (* Inv_idx reads neither of the two fields that may differ (applied, log), nor the clock *)
  unfold same_entities. destruct s, s'. cbn. intros (-> & -> & -> & -> & -> & -> & -> & -> & -> & -> & -> & -> & _) I. exact I.
Qed.

Lemma prim_idx A T s s' : Prim env A T s s' -> Inv_idx env s -> Inv_idx env s'.
Proof.
  intros P I. destruct P.
  - eapply modify_vehicle_idx; eauto.
  - eapply modify_station_idx; eauto.
  - eapply modify_base_idx; eauto.
  - eapply modify_request_idx; eauto.
  - eapply remove_request_idx; eauto.
  - eapply add_request_idx; eauto.
  - eapply same_entities_idx; eauto.
  - exact I.
Qed.
Lemma reach_idx A T s s' : Reach env A T s s' -> Inv_idx env s -> Inv_idx env s'.
Proof. induction 1; intro I; [exact I|]. apply IHReach. eapply prim_idx; eauto. Qed.

Theorem step_op_idx s o : Inv_idx env s -> Inv_idx env (step_op env s o).
Proof. apply (reach_idx _ _ _ _ (step_op_reach env s o)). Qed.

(* a raw operation that fails leaves the state as it was *)
Lemma status_idx s (r : res Sim) : Inv_idx env s -> (forall s', r = Ok s' -> Inv_idx env s') ->
  Inv_idx env (fst match r with Ok s' => (s', 0%Z) | Reject => (s, 1%Z) | Err => (s, 2%Z) end).
Proof. intros I H. destruct r; cbn; auto. Qed.

Theorem run_xop_idx s o : Inv_idx env s -> Inv_idx env (fst (run_xop env s o)).
Proof.
  intro I. destruct o; cbn [run_xop]; [exact (step_op_idx _ _ I)|(apply (status_idx _ _ I); intros s' E) ..].
  - exact (add_vehicle_idx _ _ _ _ I E).
  - exact (modify_vehicle_idx _ _ _ _ I E).
  - exact (remove_vehicle_idx _ _ _ _ I E).
  - destruct (pop_vehicle env s i) as [[s1 v]| |] eqn:P; inv E. exact (pop_vehicle_idx _ _ _ _ _ I P).
  - exact (add_station_idx _ _ _ _ I E).
  - exact (modify_station_idx _ _ _ _ I E).
  - exact (remove_station_idx _ _ _ _ I E).
  - exact (add_base_idx _ _ _ _ I E).
  - exact (modify_base_idx _ _ _ _ I E).
  - exact (remove_base_idx _ _ _ _ I E).
  - exact (add_request_idx _ _ _ _ I E).
  - exact (modify_request_idx _ _ _ _ I E).
  - exact (remove_request_idx _ _ _ _ I E).
Qed.

Theorem index_invariant ops : forall s0, Inv_idx env s0 -> Inv_idx env (fold_left (fun s o => fst (run_xop env s o)) ops s0).
Proof. induction ops as [|o ops IH]; intros s0 I; cbn [fold_left]; [exact I|]. apply IH. apply run_xop_idx. exact I. Qed.

Lemma fold_unwrap_idx {X} (f : Sim -> X -> res Sim) l : (forall s x s', Inv_idx env s -> f s x = Ok s' -> Inv_idx env s') ->
  forall s, Inv_idx env s -> Inv_idx env (fold_left (fun a x => unwrap a (f a x)) l s).
Proof.
  intro Hf. induction l as [|x l IH]; intros s I; cbn [fold_left]; [exact I|]. apply IH.
  unfold unwrap. destruct (f s x) eqn:E; eauto.
Qed.

(* a state built the way the harness (and initialize_simulation) builds it satisfies the invariant *)
Lemma build_sim_idx t0 d vs ss bs rs : Inv_idx env (build_sim env t0 d vs ss bs rs).
Proof.
  unfold build_sim. apply fold_unwrap_idx; [apply add_request_idx|]. apply fold_unwrap_idx; [apply add_base_idx|].
  apply fold_unwrap_idx; [apply add_station_idx|]. apply fold_unwrap_idx; [apply add_vehicle_idx|]. apply empty_idx.
Qed.
End S.
