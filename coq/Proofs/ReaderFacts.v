(* Proofs/ReaderFacts.v — C11: the windowed reader releases every row of a sorted file exactly once, in the first
   step that begins after its key. *)
From Hive.Base Require Import Prelude.
From Hive.Model Require Import Types SimOps Step Reader.
From Hive.Gen Require Import Kernels.
From Coq Require Import Sorting.Sorted.
Local Open Scope Z_scope.

Section R.
  Context {A : Type}.
  Definition keys_sorted (rows : list (Z * A)) : Prop := StronglySorted (fun a b => fst a <= fst b) rows.

  Lemma stop_spec now k : requests_stop_condition now k = true <-> k < now.
  Proof. unfold requests_stop_condition. apply Z.ltb_lt. Qed.
  Lemma price_stop_spec now k : prices_stop_condition now k = true <-> k < now.
  Proof. unfold prices_stop_condition. apply Z.ltb_lt. Qed.

  Lemma filter_all {B} (f : B -> bool) l : Forall (fun x => f x = true) l -> filter f l = l.
  Proof. induction 1; cbn; [reflexivity|]. rewrite H. f_equal. assumption. Qed.
  Lemma filter_none {B} (f : B -> bool) l : Forall (fun x => f x = false) l -> filter f l = [].
  Proof. induction 1; cbn; [reflexivity|]. rewrite H. assumption. Qed.
  Lemma filter_filter {B} (f g : B -> bool) l : filter f (filter g l) = filter (fun x => g x && f x) l.
  Proof. induction l as [|x l IH]; cbn; [reflexivity|]. destruct (g x); cbn; rewrite IH; reflexivity. Qed.
  Lemma sorted_filter {B} (R : B -> B -> Prop) f l : StronglySorted R l -> StronglySorted R (filter f l).
  Proof.
    induction 1 as [|a l S IH F]; cbn; [constructor|]. destruct (f a); [|exact IH].
    constructor; [exact IH|exact (incl_Forall (incl_filter f l) F)].
  Qed.

  (* on a sorted file, one read = (all rows with key < now, all rows with key >= now), order kept *)
  Lemma read_until_sorted now (rows : list (Z * A)) : keys_sorted rows ->
    read_until (requests_stop_condition now) rows = (filter (fun x => fst x <? now) rows, filter (fun x => now <=? fst x) rows).
  Proof.
    induction 1 as [|[k a] t Hs IH Hall]; cbn [read_until filter fst]; [reflexivity|].
    unfold requests_stop_condition in *. destruct (Z.ltb_spec k now) as [L|L].
    - rewrite IH, (proj2 (Z.leb_gt now k) L). reflexivity.
    - rewrite (proj2 (Z.leb_le now k) L), filter_none, filter_all; [reflexivity| |];
        (eapply Forall_impl; [|exact Hall]); cbn; intros x Hx; [apply Z.leb_le|apply Z.ltb_ge]; lia.
  Qed.

  (* the rows released over a run at increasing times: row x is released in window j iff t_{j-1} <= key x < t_j *)
  Fixpoint window_spec (lo : option Z) (times : list Z) (rows : list (Z * A)) : list (list (Z * A)) :=
    match times with
    | [] => []
    | now :: ts => filter (fun x => (match lo with Some l => Z.leb l (fst x) | None => true end) && Z.ltb (fst x) now) rows
                   :: window_spec (Some now) ts rows
    end.

  (* after the read at time l the reader holds the rows with key >= l *)
  Lemma windows_from times : forall l (all : list (Z * A)), keys_sorted all -> StronglySorted Z.lt (l :: times) ->
    windows times (filter (fun x => l <=? fst x) all) = window_spec (Some l) times all.
  Proof.
    induction times as [|now ts IH]; intros l all Hs Ht; cbn [windows window_spec]; [reflexivity|].
    apply StronglySorted_inv in Ht. destruct Ht as [Ht Hl]. apply Forall_inv in Hl.
    rewrite read_until_sorted, !filter_filter by (apply sorted_filter; exact Hs). f_equal.
    rewrite <- (IH now all Hs Ht). f_equal. apply filter_ext. intro x.
    destruct (Z.leb_spec now (fst x)); [|apply andb_false_r]. apply andb_true_iff. split; [apply Z.leb_le; lia|reflexivity].
  Qed.

  (* every row of a sorted file is released exactly once, in the first step that begins after its key; never before *)
  Corollary reader_window times rows : keys_sorted rows -> StronglySorted Z.lt times ->
    windows times rows = window_spec None times rows.
  Proof.
    intros Hs Ht. destruct times as [|now ts]; cbn [windows window_spec]; [reflexivity|].
    rewrite read_until_sorted by exact Hs. f_equal. apply windows_from; assumption.
  Qed.
End R.

Section Rules.
  Variable env : Env.
  Lemma admit_expired s r : r_dep r + e_cancel env <= sim_time s -> admit_request env s r = s.
  Proof. intro H. unfold admit_request. apply Z.leb_le in H. rewrite H. reflexivity. Qed.
  Lemma admit_fresh s r : sim_time s < r_dep r + e_cancel env -> e_fleets env = [] -> r_mem r = [] ->
    e_fence env (r_geoid r) = true -> find (r_id r) (requests s) = None ->
    find (r_id r) (requests (admit_request env s r)) = Some r /\ log (admit_request env s r) = EvAdd (r_id r) (r_dep r) :: log s.
  Proof.
    intros H F M G N. unfold admit_request. apply Z.leb_gt in H. rewrite H, F, M. cbn.
    unfold add_request. rewrite N. unfold add_request_new. rewrite G. cbn. split; [|reflexivity]. unfold find. apply PM.gss.
  Qed.
  Lemma cancel_not_before s rid r : find rid (requests s) = Some r -> sim_time s < r_dep r + e_cancel env -> cancel_one env s rid = s.
  Proof. intros F H. unfold cancel_one. rewrite F. apply Z.ltb_lt in H. rewrite H. reflexivity. Qed.
End Rules.

(* a price update touches exactly the plug types it names at the station it names *)
Lemma station_update_prices_other st prices cid : ~ In cid (map fst prices) ->
  PM.find cid (s_state (station_update_prices st prices)) = PM.find cid (s_state st).
Proof.
  unfold station_update_prices. revert st. induction prices as [|[c p] t IH]; intros st N; cbn [fold_left]; [reflexivity|].
  rewrite IH by (intro I; apply N; right; exact I).
  unfold find. cbn [fst snd]. destruct (PM.find c (s_state st)) eqn:F; [|reflexivity]. cbn.
  rewrite PM.gso; [reflexivity|]. intro E. apply N. left. cbn. congruence.
Qed.
Lemma station_update_prices_frame st prices :
  s_id (station_update_prices st prices) = s_id st /\ s_pos (station_update_prices st prices) = s_pos st /\
  s_mem (station_update_prices st prices) = s_mem st /\ s_balance (station_update_prices st prices) = s_balance st.
Proof.
  unfold station_update_prices. revert st. induction prices as [|[c p] t IH]; intros st; cbn [fold_left fst snd]; [auto|].
  destruct (find c (s_state st)); exact (IH _).    (* the four fields of a station with s_state rewritten are its own *)
Qed.
