(* Proofs/Trip.v — C03 / C17 / C05 facts about single transitions of the step model. *)
From Hive.Base Require Import Prelude.
From Hive.Model Require Import Types KernelBase SimOps States Step.
From Hive.Gen Require Import Kernels.
From Hive.Proofs Require Import SimFacts Writes Atomic.
Local Open Scope Q_scope.

Section S.
Variable env : Env.

(* C03: no instruction can divert a vehicle that is carrying passengers *)
Lemma servicing_exit_refused vid q d l r nx s : vs_exit env (vid, ServicingTrip q d (l :: r)) nx s = Reject.
Proof. reflexivity. Qed.
Theorem no_divert s i vid q d l r nx :
  apply_phase2 env s (i, ((vid, ServicingTrip q d (l :: r)), nx)) = s.
Proof.
  apply rejected_unchanged. intros s' H. unfold transition, transition_previous_to_next in H. cbn in H. discriminate.
Qed.

(* pick_up_trip: fare credited once to the vehicle that picks up, request removed, one Pickup event — one state update *)
Lemma pick_up_trip_spec s vid rid s' : pick_up_trip env s vid rid = Ok s' ->
  exists v r, find vid (vehicles s) = Some v /\ find rid (requests s) = Some r /\
    vehicles s' = PM.add (v_id v) (veh_receive_payment v (r_value r)) (vehicles s) /\
    requests s' = PM.remove rid (requests s) /\
    log s' = EvPickup rid vid (sim_time s) (r_dep r) (r_value r) :: log s /\
    stations s' = stations s /\ bases s' = bases s.
Proof.
  unfold pick_up_trip, rbind. intro H. repeat dmatch H.
  apply modify_vehicle_spec in E1. apply remove_request_spec in H. cbn in *.
  destruct E1 as (_ & V & S & B & R & T & _ & _ & L). destruct H as (R' & V' & S' & B' & _ & _ & _ & L').
  exists v, r. repeat split; try congruence.
Qed.
Lemma enter_servicing_cases vid q d r s s' : vs_enter env (vid, ServicingTrip q d r) s = Ok s' ->
  exists a, pick_up_trip env s vid (r_id q) = Ok a /\ apply_new_vehicle_state env a vid (ServicingTrip q d r) = Ok s'.
Proof. unfold vs_enter, enter_servicing_trip, rbind. intro H. repeat dmatch H. eauto. Qed.
(* a request that is not waiting cannot be picked up (so a cancelled / already picked-up request is never picked up again) *)
Lemma pick_up_needs_waiting s vid rid : find rid (requests s) = None -> forall s', pick_up_trip env s vid rid <> Ok s'.
Proof. intros F s' H. apply pick_up_trip_spec in H. destruct H as (v & r & _ & F' & _). congruence. Qed.

(* CancelRequests only removes requests that are still waiting and have timed out, with exactly one Cancel event *)
Lemma cancel_one_spec s rid :
  cancel_one env s rid = s \/
  exists r, find rid (requests s) = Some r /\ (r_dep r + e_cancel env <= sim_time s)%Z /\
            requests (cancel_one env s rid) = PM.remove rid (requests s) /\
            log (cancel_one env s rid) = EvCancel rid (r_dep r) (sim_time s) :: log s /\
            vehicles (cancel_one env s rid) = vehicles s.
Proof.
  destruct (cancel_one_cases env s rid) as [->|(r & a & F & T & R & ->)]; [auto|]. right.
  apply remove_request_spec in R. destruct R as (R1 & V & _ & _ & _ & _ & _ & L).
  exists r. cbn. rewrite L. auto 6.
Qed.

(* ServicingTrip: a move, then the drop-off is filed if the route is exhausted *)
Lemma servicing_update_cases s vid q d r s' : perform_update env vid (ServicingTrip q d r) s = Ok s' ->
  exists a, move env s vid = Ok a /\
    (s' = a \/ exists w q' d' g t, find vid (vehicles a) = Some w /\ v_state w = ServicingTrip q' d' [] /\ s' = emit a (EvDropoff (r_id q) vid g t)).
Proof.
  cbn [perform_update]. intro H. destruct (move env s vid) as [a| |]; try discriminate. exists a. split; [reflexivity|].
  destruct (find vid (vehicles a)) as [w|] eqn:Fw; [|discriminate].
  destruct (v_state w) as [| | |q' d' [|]| | | | | | |] eqn:Sw; try (injection H as <-; left; reflexivity).
  right. unfold drop_off_trip in H. rewrite Fw in H. dmatch H. injection H as <-. exists w, q', d', (v_geoid w), (sim_time a). auto.
Qed.

(* C17: assign on entering DispatchTrip, unassign on leaving it *)
Lemma enter_dispatch_trip_assigns vid rid route s s' : enter_dispatch_trip env vid rid route s = Ok s' ->
  exists r, find rid (requests s) = Some r /\
    requests s' = PM.add (r_id r) (req_assign_dispatched_vehicle r vid (sim_time s)) (requests s).
Proof.
  unfold enter_dispatch_trip. intro H. repeat dmatch H.
  apply modify_request_spec in E3. apply apply_new_vehicle_state_spec in H. cbn in *.
  destruct E3 as (_ & R & _). destruct H as (_ & _ & _ & _ & _ & R' & _). exists r. split; [reflexivity|congruence].
Qed.
Lemma exit_dispatch_trip_unassigns rid s s' : exit_dispatch_trip env rid s = Ok s' ->
  match find rid (requests s) with
  | Some r => requests s' = PM.add (r_id r) (req_unassign_dispatched_vehicle r) (requests s)
  | None => s' = s
  end.
Proof.
  unfold exit_dispatch_trip. destruct (find rid (requests s)) as [r|] eqn:F.
  - intro H. apply modify_request_spec in H. cbn in H. intuition.
  - intro H. inv H. reflexivity.
Qed.
Lemma unassign_clears r : r_disp (req_unassign_dispatched_vehicle r) = None /\ r_id (req_unassign_dispatched_vehicle r) = r_id r.
Proof. unfold req_unassign_dispatched_vehicle. cbn. auto. Qed.
Lemma assign_sets r vid t : r_disp (req_assign_dispatched_vehicle r vid t) = Some vid /\ r_id (req_assign_dispatched_vehicle r vid t) = r_id r.
Proof. unfold req_assign_dispatched_vehicle. cbn. auto. Qed.

(* a request write can only fail at the geofence *)
Lemma modify_request_fenced s r' old : find (r_id r') (requests s) = Some old ->
  e_fence env (r_geoid r') = true -> e_fence env (p_geoid (r_dest r')) = true -> exists s', modify_request env s r' = Ok s'.
Proof.
  intros F F1 F2. unfold modify_request. rewrite F, F1, F2. cbn.
  destruct (update_entity_dicts r_geoid r_id (e_parent env) old r' (requests s) (r_loc s) (r_search s)) as [[a b] c]. eauto.
Qed.

(* running out of energy on the way to a request releases the request (the repaired _go_out_of_service_on_empty) *)
Lemma out_of_energy_releases_request s vid v rid route r s' :
  find vid (vehicles s) = Some v -> v_state v = DispatchTrip rid route -> find rid (requests s) = Some r -> r_id r = rid ->
  e_fence env (r_geoid r) = true -> e_fence env (p_geoid (r_dest r)) = true ->
  go_out_of_service_on_empty env s vid = Ok s' ->
  exists r', find rid (requests s') = Some r' /\ r_disp r' = None.
Proof.
  intros F St Fr Hid Hf1 Hf2. unfold go_out_of_service_on_empty. rewrite F, St. cbn [vs_exit].
  destruct (modify_request_fenced s (req_unassign_dispatched_vehicle r) r) as [s1 X]; [cbn; rewrite Hid; exact Fr|exact Hf1|exact Hf2|].
  assert (X' : exit_dispatch_trip env rid s = Ok s1) by (unfold exit_dispatch_trip; rewrite Fr; exact X).
  rewrite X'. intro H. apply exit_dispatch_trip_unassigns in X'. rewrite Fr in X'.
  apply apply_new_vehicle_state_spec in H. destruct H as (_ & _ & _ & _ & _ & R & _).
  exists (req_unassign_dispatched_vehicle r). split; [|apply unassign_clears].
  rewrite R, X', find_add. cbn. rewrite Hid, Pos.eqb_refl. reflexivity.
Qed.

(* C05: one transacted amount, applied to both sides in one state update *)
Definition tariff_price (st : Station) (cid : id) (kwh : Q) : Q :=
  match get_price st cid with Some p => if Qeqb p 0 then 0 else kwh * p | None => 0 end.

Lemma charge_ledger s vid sid cid s' : charge env s vid sid cid = Ok s' ->
  exists v st m c v1,
    find vid (vehicles s) = Some v /\ find sid (stations s) = Some st /\ e_mech env (v_mech v) = Some m /\
    get_charger_instance st cid = Ok c /\ v1 = fst (mech_add_energy m v c (dt s)) /\
    let kwh := v_energy v1 - v_energy v in
    let price := tariff_price st cid kwh in
    let v2 := veh_send_payment v1 price in
    let st2 := tick_energy_dispensed (station_receive_payment st price) (c_etype c) kwh in
    vehicles s' = PM.add (v_id v2) v2 (vehicles s) /\
    stations s' = PM.add (s_id st2) st2 (stations s) /\
    log s' = EvCharge vid sid cid (c_etype c) kwh price (sim_time s) :: log s /\
    requests s' = requests s /\ bases s' = bases s.
Proof.
  unfold charge. intro H.
  destruct (find sid (stations s)) as [st|] eqn:Fs; [|discriminate].
  destruct (find vid (vehicles s)) as [v|] eqn:Fv; [|discriminate].
  destruct (e_mech env (v_mech v)) as [m|] eqn:Em; [|discriminate].
  destruct (get_charger_instance st cid) as [c| |] eqn:Gc; try discriminate.
  destruct (mech_is_full m v); [discriminate|]. destruct (negb _); [discriminate|].
  destruct (mech_add_energy m v c (dt s)) as [charged x] eqn:Ma. cbv zeta in H.
  fold (tariff_price st cid (v_energy charged - v_energy v)) in H.
  destruct (modify_vehicle env s _) as [s1| |] eqn:Mv; try discriminate.
  apply modify_vehicle_spec in Mv. destruct Mv as (_ & V & S & B & R & T & _ & _ & L).
  apply modify_station_spec in H. cbn [emit stations vehicles bases requests log set] in H. destruct H as (_ & S' & V' & B' & R' & _ & _ & _ & L').
  exists v, st, m, c, charged. cbv zeta. repeat split; try congruence. rewrite Ma. reflexivity.
Qed.
Lemma payment_conserved v st price :
  v_balance (veh_send_payment v price) + s_balance (station_receive_payment st price) == v_balance v + s_balance st.
Proof. unfold veh_send_payment, station_receive_payment. cbn. lra. Qed.
End S.
