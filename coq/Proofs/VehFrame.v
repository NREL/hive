(* Proofs/VehFrame.v — the vehicle frame theorem: over any operation of the step alphabet, every vehicle record evolves only
   through the writes of Writes.v (`VWrite`: the six shapes of `VRel`, and driver updates), whatever the controller does;
   vehicles are never dropped, added or re-keyed.  Per-vehicle invariants over whole histories (energy accounting, constant
   membership / powertrain, ...) follow by induction on the chain of writes. *)
From Hive.Base Require Import Prelude.
From Hive.Model Require Import Types KernelBase SimOps States Step.
From Hive.Gen Require Import Kernels.
From Hive.Proofs Require Import SimFacts Writes Energy.

Definition vkeys (s : Sim) : Prop := forall k v, find k (vehicles s) = Some v -> v_id v = k.

Section VF.
Variable env : Env.
(* the writes considered: `VRel`, or `VWrite` when driver updates are among the operations *)
Variable R : Vehicle -> Vehicle -> Prop.
Hypothesis R_id : forall a b, R a b -> v_id b = v_id a.

Inductive VStar : Vehicle -> Vehicle -> Prop :=
| VS_refl v : VStar v v
| VS_step v1 v2 v3 : R v1 v2 -> VStar v2 v3 -> VStar v1 v3.
Lemma VStar_trans a b c : VStar a b -> VStar b c -> VStar a c.
Proof. induction 1; auto. intro. econstructor; eauto. Qed.

(* given that s is keyed by id: so is s', every vehicle of s is in s' and evolved by VStar, and no vehicle appears *)
Definition vstep (s s' : Sim) : Prop :=
  vkeys s -> vkeys s' /\ forall vid, match find vid (vehicles s) with
                                     | Some v => exists v', find vid (vehicles s') = Some v' /\ VStar v v'
                                     | None => find vid (vehicles s') = None
                                     end.

Lemma vstep_same s s' : vehicles s' = vehicles s -> vstep s s'.
Proof. intros V K. unfold vkeys. rewrite V. split; [exact K|]. intro vid. destruct (find vid (vehicles s)) as [v|]; [exists v; split; [reflexivity|constructor]|reflexivity]. Qed.
Lemma vstep_trans s1 s2 s3 : vstep s1 s2 -> vstep s2 s3 -> vstep s1 s3.
Proof.
  intros A B K. destruct (A K) as (K2 & V2). destruct (B K2) as (K3 & V3).
  split; [exact K3|]. intro vid. specialize (V2 vid). specialize (V3 vid). destruct (find vid (vehicles s1)) as [v|].
  - destruct V2 as (v2 & F2 & S2). rewrite F2 in V3. destruct V3 as (v3 & F3 & S3). exists v3. split; [exact F3|]. eapply VStar_trans; eauto.
  - rewrite V2 in V3. exact V3.
Qed.
Theorem Writes_vstep (V : id -> Vehicle -> Vehicle -> Prop) E A T s s' : (forall k a b, V k a b -> R a b) -> Writes env V E A T s s' -> vstep s s'.
Proof.
  intro HV. apply Writes_lift; [intro; apply vstep_same; reflexivity|apply vstep_trans|]. clear s s'. intros s s' W.
  destruct (Write_vehicles _ _ _ _ _ _ _ W) as [Ve|(k & old & w & F & Vw & Ve)]; [apply vstep_same; exact Ve|].
  intro K. apply HV in Vw. assert (Ek : v_id w = k) by (rewrite (R_id _ _ Vw); apply K; exact F). unfold vkeys. rewrite Ve. split.
  - apply (keyed_add v_id). exact K.
  - intro vid. rewrite find_add, Ek. destruct (Pos.eqb_spec vid k) as [->|_].
    + rewrite F. exists w. split; [reflexivity|]. econstructor; [exact Vw|constructor].
    + destruct (find vid (vehicles s)) as [v|]; [exists v; split; [reflexivity|constructor]|reflexivity].
Qed.
End VF.

(* what no write ever changes, and the energy balance: level - gained + expended never changes (C04: "at all times equals its
   initial energy plus everything it has gained minus everything it has expended") — unconditionally, for both powertrains *)
Local Open Scope Q_scope.
Definition balance (v : Vehicle) : Q := v_energy v - v_gained v + v_expended v.
Definition vkept (v v' : Vehicle) : Prop := v_id v' = v_id v /\ v_mem v' = v_mem v /\ v_mech v' = v_mech v /\ balance v' == balance v.
Lemma drain_kept v x : vkept v (drain v x).
Proof. destruct (drain_frame v x) as (A & _ & B & C & _). repeat split; auto. unfold balance, drain. cbn. lra. Qed.
Lemma VRel_kept v v' : VRel v v' -> vkept v v'.
Proof.
  destruct 1; try (repeat split; unfold balance; cbn; lra).
  - destruct (mech_add_energy_frame m v c t) as (A & _ & B & C & X & _). pose proof (mech_add_energy_gained m v c t) as G. cbv zeta in G.
    repeat split; cbn; auto. unfold balance. cbn. rewrite X. lra.
  - rewrite mech_idle_is_drain. destruct (drain_kept v (hourly (m_idle m) t)) as (A & B & C & D). repeat split; auto.
  - rewrite mech_idle_is_drain. apply drain_kept.
  - rewrite mech_consume_is_drain. destruct (drain_kept v (energy_cost m exp * m_energy_conv m)) as (A & B & C & D). repeat split; auto.
Qed.
Lemma mech_add_energy_id (m : Mech) v c t : v_id (fst (mech_add_energy m v c t)) = v_id v.
Proof. apply mech_add_energy_frame. Qed.
Lemma VRel_id a b : VRel a b -> v_id b = v_id a.
Proof. intro W. apply VRel_kept in W. apply W. Qed.
Lemma VWrite_kept v v' : VWrite v v' -> vkept v v'.
Proof. destruct 1; [apply VRel_kept; assumption|repeat split; reflexivity]. Qed.
Lemma VStar_kept (R : Vehicle -> Vehicle -> Prop) v v' : (forall a b, R a b -> vkept a b) -> VStar R v v' -> vkept v v'.
Proof.
  intro HR. induction 1 as [|a b c Rab _ (A & B & C & D)]; [repeat split; reflexivity|]. destruct (HR _ _ Rab) as (A' & B' & C' & D').
  repeat split; try congruence. rewrite D. exact D'.
Qed.
Lemma VRel_driver v v' : VRel v v' -> v_driver v' = v_driver v.
Proof.
  destruct 1; cbn [v_driver set veh_send_payment veh_receive_payment veh_tick_distance].
  - reflexivity.
  - reflexivity.
  - apply mech_add_energy_frame.
  - apply mech_idle_frame.
  - apply mech_idle_frame.
  - apply mech_consume_frame.
Qed.
Lemma VStar_driver v v' : VStar VRel v v' -> v_driver v' = v_driver v.
Proof. induction 1 as [|a b c Rab]; [auto|]. apply VRel_driver in Rab. congruence. Qed.

Section Hist.
Variable env : Env.
Lemma VWrite_id a b : VWrite a b -> v_id b = v_id a.
Proof. intro W. apply VWrite_kept in W. apply W. Qed.
Lemma Writes_vkeys (V : id -> Vehicle -> Vehicle -> Prop) E A T s s' : (forall k a b, V k a b -> VWrite a b) ->
  Writes env V E A T s s' -> vkeys s -> vkeys s'.
Proof. intros HV W K. exact (proj1 (Writes_vstep env VWrite VWrite_id V E A T s s' HV W K)). Qed.
Theorem ops_vstep ops : forall s, vstep VWrite s (fold_left (step_op env) ops s).
Proof.
  induction ops as [|o ops IH]; intro s; cbn [fold_left]; [apply vstep_same; reflexivity|].
  eapply vstep_trans; [apply (Writes_vstep env _ VWrite_id _ _ _ _ _ _ (op_writes_any o) (step_op_writes env s o))|apply IH].
Qed.
Theorem history_vehicle_frame ops s0 : vkeys s0 -> forall vid v0, find vid (vehicles s0) = Some v0 ->
  exists v, find vid (vehicles (fold_left (step_op env) ops s0)) = Some v /\
            v_id v = v_id v0 /\ v_mem v = v_mem v0 /\ v_mech v = v_mech v0 /\ balance v == balance v0.
Proof.
  intros K vid v0 F. destruct (ops_vstep ops s0 K) as (_ & V). specialize (V vid). rewrite F in V. destruct V as (v & Fv & S).
  exists v. split; [exact Fv|]. exact (VStar_kept _ _ _ VWrite_kept S).
Qed.
End Hist.
