(* Proofs/Atomic.v — C09: instructions apply all-or-nothing, one per vehicle per step. *)
From Hive.Base Require Import Prelude.
From Hive.Model Require Import Types KernelBase SimOps States Step Stack.
From Hive.Gen Require Import Kernels.

Section S.
Variable env : Env.

(* the generated transition_previous_to_next returns a new state only if exit AND enter succeeded; in every other
   case its caller keeps the previous state — the whole Sim record, applied_instructions included *)
Lemma transition_ok_iff s p n s' : transition env s p n = Ok s' <->
  exists s1, vs_exit env p n s = Ok s1 /\ vs_enter env n s1 = Ok s'.
Proof.
  unfold transition, transition_previous_to_next. split.
  - destruct (vs_exit env p n s) as [s1| |]; try discriminate. destruct (vs_enter env n s1) eqn:E; try discriminate.
    intro H. inversion H; subst. eauto.
  - intros [s1 [H1 H2]]. rewrite H1, H2. reflexivity.
Qed.
Lemma rejected_unchanged s i r : (forall s', transition env s (fst r) (snd r) <> Ok s') -> apply_phase2 env s (i, r) = s.
Proof. intro H. unfold apply_phase2. destruct (transition env s (fst r) (snd r)) eqn:E; auto. exfalso. eapply H; eauto. Qed.
Lemma accepted_recorded s i r s' : transition env s (fst r) (snd r) = Ok s' ->
  apply_phase2 env s (i, r) = s' <| applied := PM.add (instr_vid i) i (applied s') |>.
Proof. intro H. unfold apply_phase2. rewrite H. reflexivity. Qed.
Lemma apply_phase2_cases s i r :
  apply_phase2 env s (i, r) = s \/
  exists s', transition env s (fst r) (snd r) = Ok s' /\ apply_phase2 env s (i, r) = s' <| applied := PM.add (instr_vid i) i (applied s') |>.
Proof. unfold apply_phase2. destruct (transition env s (fst r) (snd r)); eauto. Qed.

(* a refused instruction does not disturb the others: the batch behaves as if it had not been there *)
Lemma refused_is_skipped l1 x l2 s :
  apply_phase2 env (fold_left (apply_phase2 env) l1 s) x = fold_left (apply_phase2 env) l1 s ->
  fold_left (apply_phase2 env) (l1 ++ x :: l2) s = fold_left (apply_phase2 env) (l1 ++ l2) s.
Proof. intro H. rewrite !fold_left_app. cbn [fold_left]. rewrite H. reflexivity. Qed.

(* an instruction naming an unknown vehicle or target yields no transition at all *)
Lemma phase1_unknown_vehicle s acc i : find (instr_vid i) (vehicles s) = None -> apply_phase1 env s acc i = acc.
Proof. intro H. unfold apply_phase1, apply_instruction. rewrite H. reflexivity. Qed.
End S.

Lemma top_push st i vid : top (push st i) vid = if Pos.eqb vid (instr_vid i) then Some i else top st vid.
Proof.
  unfold top, push. destruct (Pos.eqb_spec vid (instr_vid i)) as [->|N].
  - rewrite PM.gss. reflexivity.
  - rewrite PM.gso by exact N. reflexivity.
Qed.
Fixpoint last_for (vid : id) (is : list Instr) (d : option Instr) : option Instr :=
  match is with [] => d | i :: t => last_for vid t (if Pos.eqb vid (instr_vid i) then Some i else d) end.
Lemma top_push_all is : forall st vid, top (push_all st is) vid = last_for vid is (top st vid).
Proof.
  induction is as [|i t IH]; intros st vid; cbn [push_all fold_left last_for]; [reflexivity|].
  unfold push_all in IH. rewrite IH, top_push. reflexivity.
Qed.
Lemma last_for_app vid a b d : last_for vid (a ++ b) d = last_for vid b (last_for vid a d).
Proof. revert d. induction a as [|i t IH]; intro d; cbn; [reflexivity|]. apply IH. Qed.

(* precedence: the driver's instruction if the driver issued one, else the last instruction for that vehicle of the
   last generator (in configured order) that issued one *)
Theorem stack_precedence gens drivers vid :
  top (build_stack gens drivers) vid = last_for vid (concat gens ++ drivers) None.
Proof.
  unfold build_stack. rewrite top_push_all, last_for_app. f_equal.
  assert (G : forall gs st, top (fold_left push_all gs st) vid = last_for vid (concat gs) (top st vid)).
  { induction gs as [|g gs IH]; intro st; cbn [fold_left concat]; [reflexivity|]. rewrite IH, top_push_all, last_for_app. reflexivity. }
  rewrite G. unfold top. rewrite PM.gempty. reflexivity.
Qed.
(* if some instruction for vid is in l, the result is one of l's instructions for vid (the last one) *)
Lemma last_for_some vid l : forall d i, In i l -> instr_vid i = vid -> exists j, last_for vid l d = Some j /\ In j l /\ instr_vid j = vid.
Proof.
  induction l as [|x t IH] using rev_ind; intros d i Hin Hv; [destruct Hin|].
  rewrite last_for_app. cbn [last_for]. destruct (Pos.eqb_spec vid (instr_vid x)) as [E|N].
  - exists x. split; [reflexivity|]. split; [apply in_or_app; right; left; reflexivity|symmetry; exact E].
  - apply in_app_or in Hin. destruct Hin as [Hin|[->|[]]]; [|destruct (N (eq_sym Hv))].
    destruct (IH d i Hin Hv) as (j & E & I & V). exists j. split; [exact E|]. split; [apply in_or_app; left; exact I|exact V].
Qed.
Theorem driver_has_final_word gens drivers vid i : In i drivers -> instr_vid i = vid ->
  exists j, top (build_stack gens drivers) vid = Some j /\ In j drivers /\ instr_vid j = vid.
Proof.
  intros Hin Hv. rewrite stack_precedence, last_for_app. eapply last_for_some; eauto.
Qed.
(* at most one instruction per vehicle takes part in a step: top is a function of the vehicle id *)
Theorem one_per_vehicle gens drivers vid i j :
  top (build_stack gens drivers) vid = Some i -> top (build_stack gens drivers) vid = Some j -> i = j.
Proof. congruence. Qed.
