(* Proofs/Shift.v — C20: the generated time_in_range is start-inclusive, end-exclusive with wrap-around, and a driver
   update makes availability equal to it, reporting exactly the flips. *)
From Hive.Base Require Import Prelude.
From Hive.Model Require Import Types KernelBase SimOps States Step.
From Hive.Gen Require Import Kernels.
From Hive.Proofs Require Import SimFacts.
Local Open Scope Z_scope.

Lemma time_in_range_spec a b x :
  time_in_range a b x = true <-> (a <= b /\ a <= x < b) \/ (b < a /\ (a <= x \/ x < b)).
Proof.
  unfold time_in_range. destruct (Z.leb_spec a b).
  - rewrite andb_true_iff, Z.leb_le, Z.ltb_lt. lia.
  - rewrite orb_true_iff, Z.leb_le, Z.ltb_lt. lia.
Qed.
Lemma time_in_range_empty a x : time_in_range a a x = false.
Proof. destruct (time_in_range a a x) eqn:E; [|reflexivity]. apply time_in_range_spec in E. lia. Qed.
Lemma tod_range t : 0 <= tod t < 86400.
Proof. unfold tod. apply Z.mod_pos_bound. lia. Qed.
Lemma tod_periodic t k : tod (t + k * 86400) = tod t.
Proof. unfold tod. apply Z.mod_add. lia. Qed.

Section S.
Variable env : Env.

(* one driver update: the new availability is the schedule's verdict at the step's start time (every t, multi-day),
   the vehicle is otherwise untouched, and a schedule event is filed exactly when availability flips *)
Lemma driver_update_spec rt s v sch a b s' :
  find (v_id v) (vehicles s) = Some v -> driver_sched (v_driver v) = Some sch -> e_sched env sch = Some (a, b) ->
  driver_update env rt s v = Ok s' ->
  let inside := time_in_range a b (tod (sim_time s)) in
  let flip := negb (Bool.eqb (driver_available (v_driver v)) inside) in
  exists d', vehicles s' = (if flip then PM.add (v_id v) (v <| v_driver := d' |>) (vehicles s) else vehicles s) /\
             (flip = true -> driver_available d' = inside /\ driver_sched d' = Some sch) /\
             log s' = (if flip then EvSchedule (v_id v) inside (sim_time s) :: log s else log s) /\
             stations s' = stations s /\ bases s' = bases s /\ requests s' = requests s.
Proof.
  intros F Hs He. unfold driver_update, sched_active, apply_new_driver_state. cbv zeta. cbn [emit vehicles set]. rewrite F.
  destruct (v_driver v) as [|sc home|sc home tgt]; inv Hs; rewrite He; cbn [driver_available].
  all: destruct (time_in_range a b (tod (sim_time s))); cbn [negb Bool.eqb]; intro H.
  (* availability already agrees with the schedule: nothing is written; otherwise one vehicle write after the event *)
  1, 4: inv H; exists Autonomous; repeat split; discriminate.
  all: apply modify_vehicle_spec in H; cbn in H; destruct H as (_ & V & S & B & R & _ & _ & _ & L); eexists; repeat split; eauto.
Qed.
End S.
