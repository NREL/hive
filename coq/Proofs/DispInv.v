(* Proofs/DispInv.v — C17 as a state invariant over whole histories: whenever a waiting request records a dispatched vehicle,
   that vehicle is travelling to that request — for every controller, through the macro frame theorem. *)
From Hive.Base Require Import Prelude.
From Hive.Model Require Import Types KernelBase SimOps States Step.
From Hive.Gen Require Import Kernels.
From Hive.Proofs Require Import SimFacts Writes Reach VehFrame Energy Move Atomic Trip Macro.

Section D.
Variable env : Env.
(* both road networks answer geoid_within_geofence with the constant True at this commit (re-checked from the source by the harness) *)
Hypothesis fence_ok : forall g, e_fence env g = true.

Definition rkeys (s : Sim) : Prop := forall k r, find k (requests s) = Some r -> r_id r = k.
Definition going_to (st : VState) (rid : id) : Prop := exists route, st = DispatchTrip rid route.
Definition Inv_disp (s : Sim) : Prop :=
  rkeys s /\
  forall rid r vid, find rid (requests s) = Some r -> r_disp r = Some vid ->
    exists v, find vid (vehicles s) = Some v /\ going_to (v_state v) rid.
Definition clean (vid : id) (s : Sim) : Prop := forall rid r, find rid (requests s) = Some r -> r_disp r <> Some vid.

Definition rsub (s s' : Sim) : Prop := forall k r, find k (requests s') = Some r -> find k (requests s) = Some r.
Lemma rsub_refl s s' : requests s' = requests s -> rsub s s'.
Proof. intros E k r F. rewrite E in F. exact F. Qed.

(* the invariant survives any change that (a) only removes requests or leaves them alone and (b) keeps every vehicle that some
   request names in an activity that still goes to that request *)
Lemma Inv_disp_sub s s' : Inv_disp s -> rsub s s' ->
  (forall vid v rid, find vid (vehicles s) = Some v -> going_to (v_state v) rid ->
      (exists r, find rid (requests s') = Some r /\ r_disp r = Some vid) ->
      exists v', find vid (vehicles s') = Some v' /\ going_to (v_state v') rid) ->
  Inv_disp s'.
Proof.
  intros [RK I] Sub Keep. split.
  - intros k r F. apply RK. apply Sub. exact F.
  - intros rid r vid F Dp. destruct (I rid r vid (Sub _ _ F) Dp) as (v & Fv & G). eapply Keep; eauto.
Qed.

Lemma station_write_frame s x a : modify_station env s x = Ok a -> vehicles a = vehicles s /\ requests a = requests s.
Proof. intro M. apply modify_station_spec in M. tauto. Qed.
Lemma base_write_frame s x a : modify_base env s x = Ok a -> vehicles a = vehicles s /\ requests a = requests s.
Proof. intro M. apply modify_base_spec in M. tauto. Qed.

Lemma exit_effect vid st nx s s1 : vs_exit env (vid, st) nx s = Ok s1 ->
  vehicles s1 = vehicles s /\
  match st with
  | DispatchTrip rid _ =>
      match find rid (requests s) with
      | Some r => requests s1 = PM.add (r_id r) (req_unassign_dispatched_vehicle r) (requests s)
      | None => requests s1 = requests s
      end
  | _ => requests s1 = requests s
  end.
Proof.
  intro H. split; [eapply vs_exit_same; eauto|].
  destruct (exit_cases env _ _ _ _ _ H) as [st Hn Nt|rid rt r s1 F M|sid cid stn stn' s1 _ _ M|sid cid t stn stn' s1 _ _ M|bid b b' s1 _ _ M|bid cid b b' sid stn stn' s2 s1 _ _ _ _ Mb _ Ms].
  - destruct st; try reflexivity. rewrite (Nt _ _ eq_refl). reflexivity.
  - rewrite F. apply modify_request_spec in M. apply M.
  - apply (station_write_frame _ _ _ M).
  - apply (station_write_frame _ _ _ M).
  - apply (base_write_frame _ _ _ M).
  - rewrite (proj2 (station_write_frame _ _ _ Ms)). apply (base_write_frame _ _ _ Mb).
Qed.

(* a request of s1 is a request of s, unchanged, or unassigned if it is the one the activity left was travelling to *)
Lemma exit_requests vid st nx s s1 : rkeys s -> vs_exit env (vid, st) nx s = Ok s1 ->
  forall k q1, find k (requests s1) = Some q1 -> exists q0, find k (requests s) = Some q0 /\
    ((q1 = q0 /\ ~ going_to st k) \/ (q1 = req_unassign_dispatched_vehicle q0 /\ going_to st k)).
Proof.
  intros RK X k q1 F. destruct (exit_effect _ _ _ _ _ X) as [_ R].
  destruct st; try (rewrite R in F; exists q1; split; [exact F|left; split; [reflexivity|intros [rt E]; discriminate E]]).
  destruct (find rid (requests s)) as [r0|] eqn:F0; rewrite R in F.
  - rewrite find_add, (RK _ _ F0) in F. destruct (Pos.eqb_spec k rid) as [->|N].
    + inv F. exists r0. split; [exact F0|right; split; [reflexivity|exists route; reflexivity]].
    + exists q1. split; [exact F|left; split; [reflexivity|intros [rt E]; inv E; apply N; reflexivity]].
  - exists q1. split; [exact F|left; split; [reflexivity|intros [rt E]; inv E; congruence]].
Qed.

(* after the exit of the vehicle's CURRENT activity the invariant still holds and no request names the vehicle any more *)
Lemma exit_cleans vid st nx s s1 v : Inv_disp s -> find vid (vehicles s) = Some v -> v_state v = st ->
  vs_exit env (vid, st) nx s = Ok s1 -> Inv_disp s1 /\ clean vid s1 /\ vehicles s1 = vehicles s.
Proof.
  intros [RK I] Fv Hst X. pose proof (exit_requests _ _ _ _ _ RK X) as Back. destruct (exit_effect _ _ _ _ _ X) as [V _].
  (* a request of s1 that names a vehicle is an unchanged request of s, and not the one the activity left was travelling to *)
  assert (D : forall k q1 u, find k (requests s1) = Some q1 -> r_disp q1 = Some u -> find k (requests s) = Some q1 /\ ~ going_to st k).
  { intros k q1 u F Dp. destruct (Back _ _ F) as (q0 & F0 & [[-> NG]|[-> _]]); [auto|]. rewrite (proj1 (unassign_clears q0)) in Dp. discriminate Dp. }
  split; [split|split; [|exact V]].
  - intros k q1 F. destruct (Back _ _ F) as (q0 & F0 & [[-> _]|[-> _]]); [|rewrite (proj2 (unassign_clears q0))]; apply RK; exact F0.
  - intros k q1 u F Dp. rewrite V. eapply I; [apply (D _ _ _ F Dp)|exact Dp].
  - intros k q1 F Dp. destruct (D _ _ _ F Dp) as [F0 NG]. destruct (I _ _ _ F0 Dp) as (v' & Fv' & G).
    apply NG. rewrite <- Hst. congruence.
Qed.

Lemma enter_effect vid nx s1 s' : vkeys s1 -> vs_enter env (vid, nx) s1 = Ok s' ->
  exists v', find vid (vehicles s') = Some v' /\
   ( (exists rid route r, v_state v' = DispatchTrip rid route /\ find rid (requests s1) = Some r /\
        requests s' = PM.add (r_id r) (req_assign_dispatched_vehicle r vid (sim_time s1)) (requests s1))
     \/ ((forall rid, ~ going_to (v_state v') rid) /\ rsub s1 s') ).
Proof.
  intros K H.
  (* every activity is entered by writing it into the vehicle's record, in a state a that earlier writes have prepared *)
  assert (Last : forall a st b, vkeys a -> apply_new_vehicle_state env a vid st = Ok b ->
            requests b = requests a /\ exists v, find vid (vehicles b) = Some (v <| v_state := st |>)).
  { intros a st b Ka A. apply apply_new_vehicle_state_spec in A. destruct A as (v & F & V & _ & _ & R & _). split; [exact R|]. exists v.
    rewrite V, find_add, (Ka _ _ F), Pos.eqb_refl. reflexivity. }
  (* unless the activity is a trip to a request, those earlier writes have at most removed a request *)
  assert (Quiet : forall a st b, vkeys a -> rsub s1 a -> apply_new_vehicle_state env a vid st = Ok b -> (forall rid route, st <> DispatchTrip rid route) ->
            exists v', find vid (vehicles b) = Some v' /\ (forall rid, ~ going_to (v_state v') rid) /\ rsub s1 b).
  { intros a st b Ka Sub A Nd. destruct (Last a st b Ka A) as (R & v & F'). eexists. split; [exact F'|]. split; [intros rid [route E]; exact (Nd _ _ E)|].
    intros k q Fk. apply Sub. rewrite <- R. exact Fk. }
  assert (Same : forall a, vehicles a = vehicles s1 /\ requests a = requests s1 -> vkeys a /\ rsub s1 a).
  { intros a [Va Ra]. split; [exact (vkeys_of_same _ _ Va K)|apply rsub_refl; exact Ra]. }
  destruct (enter_cases env _ _ _ _ H) as [nx s' P A|rid rt r a s' Fr M A|q d rt a s' P A|nx sid cid stn stn' a s' _ _ _ M A|sid cid t stn stn' a s' _ _ M A
                                          |bid b b' a s' _ _ M A|bid cid b b' sid stn stn' a2 a s' _ _ _ _ _ Mb Ms A].
  - destruct (Quiet s1 nx s' K (rsub_refl _ _ eq_refl) A) as (v' & F' & Q); [intros rid route ->; exact P|eauto].
  - apply modify_request_spec in M. destruct M as (_ & Rq & Va & _).
    destruct (Last a _ s' (vkeys_of_same _ _ Va K) A) as (R & v' & F').
    eexists. split; [exact F'|]. left. exists rid, rt, r. split; [reflexivity|]. split; [exact Fr|]. rewrite R. exact Rq.
  - destruct (pick_up_trip_spec _ _ _ _ _ P) as (pv & pr & Fpv & _ & Vp & Rp & _).
    destruct (Quiet a (ServicingTrip q d rt) s') as (v' & F' & Q); [exact (proj1 (vonly_of_add (v_id pv) s1 _ _ Vp eq_refl K))| |exact A|discriminate|eauto].
    intros k x Fk. rewrite Rp, find_remove in Fk. destruct (Pos.eqb k (r_id q)); [discriminate Fk|exact Fk].
  - destruct (Same _ (station_write_frame _ _ _ M)) as [Ka Sa]. destruct (Quiet _ _ _ Ka Sa A) as (v' & F' & Q); [discriminate|eauto].
  - destruct (Same _ (station_write_frame _ _ _ M)) as [Ka Sa]. destruct (Quiet _ _ _ Ka Sa A) as (v' & F' & Q); [discriminate|eauto].
  - destruct (Same _ (base_write_frame _ _ _ M)) as [Ka Sa]. destruct (Quiet _ _ _ Ka Sa A) as (v' & F' & Q); [discriminate|eauto].
  - destruct (base_write_frame _ _ _ Mb) as [Vb Rb]. destruct (station_write_frame _ _ _ Ms) as [Vs Rs]. rewrite Vb in Vs. rewrite Rb in Rs.
    destruct (Same _ (conj Vs Rs)) as [Ka Sa]. destruct (Quiet _ _ _ Ka Sa A) as (v' & F' & Q); [discriminate|eauto].
Qed.

(* this invariant and Inv_one (OneVeh.v) speak of the state only through its requests and through which vehicle travels to which
   request; most writes change neither *)
Definition travels (s : Sim) (vid rid : id) : Prop := exists v, find vid (vehicles s) = Some v /\ going_to (v_state v) rid.
Definition same_trips (s s' : Sim) : Prop := requests s' = requests s /\ forall vid rid, travels s' vid rid <-> travels s vid rid.
Lemma same_trips_ext s s' : vehicles s' = vehicles s -> requests s' = requests s -> same_trips s s'.
Proof. intros V R. split; [exact R|]. intros vid rid. unfold travels. rewrite V. reflexivity. Qed.
Lemma write_same_trips s s' v w : vehicles s' = PM.add (v_id w) w (vehicles s) -> requests s' = requests s -> find (v_id w) (vehicles s) = Some v ->
  (forall rid, going_to (v_state w) rid <-> going_to (v_state v) rid) -> same_trips s s'.
Proof.
  intros V R F G. split; [exact R|]. intros k rid. unfold travels. rewrite V, find_add. destruct (Pos.eqb_spec k (v_id w)) as [->|N]; [|reflexivity].
  rewrite F. split; intros (x & Ex & Gx); inv Ex; eexists; (split; [reflexivity|]); apply G; exact Gx.
Qed.
Lemma modv_same_trips s w s' v : modify_vehicle env s w = Ok s' -> find (v_id w) (vehicles s) = Some v ->
  (forall rid, going_to (v_state w) rid <-> going_to (v_state v) rid) -> same_trips s s'.
Proof. intro M. apply modify_vehicle_spec in M. destruct M as (_ & V & _ & _ & R & _). exact (write_same_trips s s' v w V R). Qed.
Lemma going_to_update_route st r rid : going_to (update_route st r) rid <-> going_to st rid.
Proof. destruct st; cbn; split; intros [rt E]; try discriminate E; inv E; eexists; reflexivity. Qed.
Lemma going_to_same st st' : st' = st -> forall rid, going_to st' rid <-> going_to st rid.
Proof. intros -> rid. reflexivity. Qed.

Lemma Inv_disp_same s s' : same_trips s s' -> Inv_disp s -> Inv_disp s'.
Proof. intros [R T] [RK I]. split; [unfold rkeys; rewrite R; exact RK|]. intros rid r vid F D. rewrite R in F. apply T. eapply I; eauto. Qed.

(* the vehicle vid is not named by any request, requests only shrink, other vehicles untouched: invariant kept whatever vid does *)
Lemma unnamed_vehicle_free s s' vid : Inv_disp s -> clean vid s -> rsub s s' ->
  (forall k, k <> vid -> find k (vehicles s') = find k (vehicles s)) -> Inv_disp s'.
Proof.
  intros I C Sub Oth. apply (Inv_disp_sub s s' I Sub). intros u v rid Fu G [r [Fr Dr]].
  destruct (Pos.eq_dec u vid) as [->|N].
  - exfalso. eapply C; [apply Sub; exact Fr|exact Dr].
  - exists v. rewrite Oth by exact N. auto.
Qed.

Lemma transition_disp s vid st nx s' : Inv_disp s -> vkeys s -> vstate_of s vid = Some st ->
  transition env s (vid, st) (vid, nx) = Ok s' -> Inv_disp s'.
Proof.
  intros I K Hst T. apply vstate_of_Some in Hst. destruct Hst as (v & Fv & Est).
  apply transition_ok_iff in T. destruct T as (s1 & X & N).
  destruct (exit_cleans _ _ _ _ _ _ I Fv Est X) as (I1 & C1 & V1).
  pose proof (vkeys_of_same _ _ V1 K) as K1.
  destruct (vs_enter_vonly env vid nx s1 s' N K1) as [K' Oth].
  destruct (enter_effect vid nx s1 s' K1 N) as (v' & Fv' & [(rid & route & r & St & Fr & Rq)|[NG Sub]]); [|eapply unnamed_vehicle_free; eauto].
  destruct I1 as [RK1 I1]. assert (Hrid : r_id r = rid) by (apply RK1; exact Fr). split.
  - intros k q Fq. rewrite Rq, find_add in Fq. destruct (Pos.eqb_spec k (r_id r)) as [->|Nk]; [inv Fq; apply assign_sets|apply RK1; exact Fq].
  - intros k q u Fq Dq. rewrite Rq, find_add in Fq. destruct (Pos.eqb_spec k (r_id r)) as [->|Nk].
    + inv Fq. rewrite (proj1 (assign_sets r vid (sim_time s1))) in Dq. inv Dq. exists v'. split; [exact Fv'|]. rewrite St. exists route. reflexivity.
    + assert (u <> vid) by (intro; subst; eapply C1; eauto).
      destruct (I1 _ _ _ Fq Dq) as (vu & Fu & G). exists vu. rewrite Oth by assumption. auto.
Qed.

Lemma modv_find s w s' : modify_vehicle env s w = Ok s' -> find (v_id w) (vehicles s') = Some w.
Proof. intro H. apply modify_vehicle_spec in H. destruct H as (_ & V & _). rewrite V, find_add, Pos.eqb_refl. reflexivity. Qed.

Lemma modify_request_total s r' old : find (r_id r') (requests s) = Some old -> exists s', modify_request env s r' = Ok s'.
Proof. intro F. apply (modify_request_fenced env s r' old F); apply fence_ok. Qed.
Lemma dispatch_exit_succeeds s vid rid route nx : rkeys s -> exists s1, vs_exit env (vid, DispatchTrip rid route) nx s = Ok s1.
Proof.
  intro RK. cbn. unfold exit_dispatch_trip. destruct (find rid (requests s)) as [r|] eqn:F; [|eauto].
  apply (modify_request_total s (req_unassign_dispatched_vehicle r) r). destruct (unassign_clears r) as [_ E]. rewrite E, (RK _ _ F). exact F.
Qed.

(* _go_out_of_service_on_empty is the transition to OutOfService; the exit it tries first can only fail for an activity that is
   not a trip to a request, and then no trip changes *)
Lemma failed_exit_not_trip s vid st nx : rkeys s -> (forall s1, vs_exit env (vid, st) nx s <> Ok s1) -> forall rid, ~ going_to st rid.
Proof. intros RK N rid [route ->]. destruct (dispatch_exit_succeeds s vid rid route nx RK) as [s1 Y]. exact (N s1 Y). Qed.
Lemma go_out_trips s vid v s' : rkeys s -> vkeys s -> find vid (vehicles s) = Some v -> go_out_of_service_on_empty env s vid = Ok s' ->
  same_trips s s' \/ transition env s (vid, v_state v) (vid, OutOfService) = Ok s'.
Proof.
  intros RK K Fv H. unfold go_out_of_service_on_empty in H. rewrite Fv in H.
  assert (Fail : (forall s1, vs_exit env (vid, v_state v) (vid, OutOfService) s <> Ok s1) -> apply_new_vehicle_state env s vid OutOfService = Ok s' -> same_trips s s').
  { intros N A. apply apply_new_vehicle_state_spec in A. destruct A as (x & Fx & V & _ & _ & R & _). rewrite Fv in Fx. inv Fx.
    apply (write_same_trips s s' x _ V R); [change (find (v_id x) (vehicles s) = Some x); rewrite (K _ _ Fv); exact Fv|].
    intro rid. split; intro G; [destruct G as [route E]; discriminate E|destruct (failed_exit_not_trip _ _ _ _ RK N rid G)]. }
  destruct (vs_exit env (vid, v_state v) (vid, OutOfService) s) as [s1| |] eqn:X.
  - right. apply transition_ok_iff. exists s1. split; [exact X|exact H].
  - left. apply Fail; [discriminate|exact H].
  - left. apply Fail; [discriminate|exact H].
Qed.

Lemma move_trips s vid v s' : rkeys s -> vkeys s -> find vid (vehicles s) = Some v -> move env s vid = Ok s' ->
  same_trips s s' \/ transition env s (vid, v_state v) (vid, OutOfService) = Ok s'.
Proof.
  intros RK K Fv H. destruct (move_cases env _ _ _ H) as (v0 & m & route & tr & Fv0 & _ & _ & _ & [(_ & M)|[(_ & G)|(e0 & w & _ & _ & Ew & M)]]).
  - left. apply (modv_same_trips _ _ _ v0 M); [cbn; rewrite (K _ _ Fv0); exact Fv0|intro rid; apply going_to_update_route].
  - eapply go_out_trips; eauto.
  - left. cbv zeta in Ew. destruct (moved_fields _ _ _ _ _ _ _ Ew) as (Hid & Hst & _).
    apply (modv_same_trips _ _ _ v0 M); [rewrite Hid, (K _ _ Fv0); exact Fv0|intro rid; rewrite Hst; apply going_to_update_route].
Qed.

Lemma charge_trips s vid sid cid s' : vkeys s -> charge env s vid sid cid = Ok s' -> same_trips s s'.
Proof.
  intros K H. destruct (charge_ledger env _ _ _ _ _ H) as (v & stn & m & c & v1 & Fv & _ & _ & _ & -> & L). cbv zeta in L. destruct L as (V & _ & _ & R & _).
  destruct (mech_add_energy_frame m v c (dt s)) as (Hid & _ & _ & _ & _ & Hst & _).
  apply (write_same_trips s s' v _ V R); [cbn; rewrite Hid, (K _ _ Fv); exact Fv|apply going_to_same; exact Hst].
Qed.

(* _perform_update amounts to at most the transition to OutOfService of a vehicle that ran out of energy on the road *)
Lemma perform_trips s vid st s' : rkeys s -> vkeys s -> vstate_of s vid = Some st -> perform_update env vid st s = Ok s' ->
  exists a, (a = s \/ transition env s (vid, st) (vid, OutOfService) = Ok a) /\ same_trips a s'.
Proof.
  intros RK K Hst H. apply vstate_of_Some in Hst. destruct Hst as (v & Fv & Est).
  assert (Hid : v_id v = vid) by (apply K; exact Fv).
  assert (Mv : forall a, move env s vid = Ok a -> exists b, (b = s \/ transition env s (vid, st) (vid, OutOfService) = Ok b) /\ same_trips b a).
  { intros a M. rewrite <- Est. destruct (move_trips s vid v a RK K Fv M) as [ST|T]; [exists s|exists a]; auto using same_trips_ext. }
  assert (Idle_ : forall m w, modify_vehicle env s w = Ok s' -> v_id w = v_id (mech_idle m v (dt s)) -> ~ (exists rid, going_to st rid \/ going_to (v_state w) rid) -> same_trips s s').
  { intros m w M Ew N. destruct (mech_idle_frame m v (dt s)) as (Hi & _).
    apply (modv_same_trips _ _ _ v M); [rewrite Ew, Hi, Hid; exact Fv|]. rewrite Est. intro rid. split; intro G; exfalso; apply N; eauto. }
  assert (Stay : same_trips s s' -> exists a, (a = s \/ transition env s (vid, st) (vid, OutOfService) = Ok a) /\ same_trips a s') by (intro ST; exists s; auto).
  destruct st; cbn [perform_update] in H; try (apply Mv; exact H).
  - rewrite Fv in H. repeat dmatch H. apply Stay, (Idle_ m _ H); [reflexivity|]. intros (rid & [[rt E0]|[rt E0]]); discriminate E0.
  - destruct (servicing_update_cases env s vid req departure route s' H) as (a & M & Dr). destruct (Mv a M) as (b & Hb & ST). exists b. split; [exact Hb|].
    destruct Dr as [->|(w & q' & d' & g & t & _ & _ & ->)]; exact ST.
  - apply Stay. destruct (charge_unless_full_cases env _ _ _ _ _ H) as [->|Hc]; [apply same_trips_ext; reflexivity|eapply charge_trips; eauto].
  - rewrite Fv in H. repeat dmatch H. destruct (mech_idle_frame m v (dt s)) as (_ & _ & _ & _ & _ & Hs & _).
    apply Stay, (Idle_ m _ H); [reflexivity|]. rewrite Hs, Est. intros (rid & [[rt E0]|[rt E0]]); discriminate E0.
  - apply Stay. injection H as <-. apply same_trips_ext; reflexivity.
  - repeat dmatch H. apply Stay. eapply charge_trips; eauto.
  - apply Stay. injection H as <-. apply same_trips_ext; reflexivity.
Qed.

Lemma perform_disp s vid st s' : Inv_disp s -> vkeys s -> vstate_of s vid = Some st -> perform_update env vid st s = Ok s' -> Inv_disp s'.
Proof.
  intros I K Hst H. destruct (perform_trips _ _ _ _ (proj1 I) K Hst H) as (a & [->|T] & ST); apply (Inv_disp_same _ _ ST); [exact I|].
  eapply transition_disp; eauto.
Qed.

Lemma cancel_one_rsub s rid : vehicles (cancel_one env s rid) = vehicles s /\ rsub s (cancel_one env s rid).
Proof.
  destruct (cancel_one_spec env s rid) as [->|(r & _ & _ & R & _ & V)]; [split; [reflexivity|apply rsub_refl; reflexivity]|]. split; [exact V|].
  intros k q Fk. rewrite R, find_remove in Fk. destruct (Pos.eqb k rid); [discriminate Fk|exact Fk].
Qed.
Lemma cancel_disp s rid : Inv_disp s -> Inv_disp (cancel_one env s rid).
Proof.
  intro I. destruct (cancel_one_rsub s rid) as [V Sub]. apply (Inv_disp_sub s _ I Sub). intros u vu rd Fu G _. exists vu. rewrite V. auto.
Qed.
Lemma admit_request_requests s r : vehicles (admit_request env s r) = vehicles s /\
  (requests (admit_request env s r) = requests s \/ requests (admit_request env s r) = PM.add (r_id r) r (requests s)).
Proof.
  destruct (admit_request_cases env s r) as [->|(a & A & ->)]; [auto|]. apply add_request_spec in A. destruct A as (R & V & _). cbn. auto.
Qed.
Lemma admit_disp s r : r_disp r = None -> Inv_disp s -> Inv_disp (admit_request env s r).
Proof.
  intros D I. destruct (admit_request_requests s r) as [V [R|R]]; [apply (Inv_disp_same s), I; apply same_trips_ext; assumption|].
  destruct I as [RK I]. split.
  - intros k q Fk. rewrite R, find_add in Fk. destruct (Pos.eqb_spec k (r_id r)) as [->|N]; [inv Fk; reflexivity|apply RK; exact Fk].
  - intros k q u Fk Dq. rewrite R, find_add in Fk. rewrite V. destruct (Pos.eqb_spec k (r_id r)) as [->|N]; [inv Fk; congruence|eapply I; eauto].
Qed.
Lemma price_trips s sid prices : same_trips s (update_station_prices env s sid prices).
Proof.
  destruct (update_station_prices_cases env s sid prices) as [->|(st & _ & M)]; [apply same_trips_ext; reflexivity|].
  apply modify_station_spec in M. destruct M as (_ & _ & V & _ & R & _). apply same_trips_ext; assumption.
Qed.
Lemma driver_trips rt s v s' : vkeys s -> driver_update env rt s v = Ok s' -> same_trips s s'.
Proof.
  intros K H. destruct (driver_update_cases env _ _ _ _ H) as [->|(on & cur & dr & F & M)]; [apply same_trips_ext; reflexivity|].
  apply modify_vehicle_spec in M. destruct M as (_ & V & _ & _ & R & _).
  apply (write_same_trips s s' cur _ V R); [cbn; rewrite (K _ _ F); exact F|reflexivity].
Qed.

Lemma mstep_disp s s' : vkeys s -> Inv_disp s -> MStep env s s' -> Inv_disp s'.
Proof.
  apply (mstep_cases env Inv_disp).
  - intros s0 vid st nx s1 K I Hst _ T. eapply transition_disp; eauto.
  - intros s0 vid st s1 K I. apply perform_disp; assumption.
  - intros s0 rid. apply cancel_disp.
  - intros s0 r. apply admit_disp.
  - intros s0 sid prices. apply Inv_disp_same, price_trips.
  - intros rt s0 v s1 K I H. exact (Inv_disp_same _ _ (driver_trips _ _ _ _ K H) I).
  - intros s0 s1 (V & _ & _ & R & _) _. apply Inv_disp_same, same_trips_ext; assumption.
  - intro s0. apply Inv_disp_same, same_trips_ext; reflexivity.
Qed.

(* C17 over every finite history, any controller (one instruction per vehicle per step; admitted rows carry no dispatched vehicle) *)
Theorem disp_invariant ops : forall s0, vkeys s0 -> Inv_disp s0 -> Forall op_ok ops ->
  vkeys (fold_left (step_op env) ops s0) /\ Inv_disp (fold_left (step_op env) ops s0).
Proof. apply (history_invariant env Inv_disp). apply mstep_disp. Qed.
Lemma Inv_disp_no_requests s : requests s = PM.empty _ -> Inv_disp s.
Proof.
  intro E. split; [intros k r F|intros k r v F]; unfold find in F; rewrite E, PM.gempty in F; discriminate.
Qed.
End D.
