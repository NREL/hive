(* Proofs/HeapFacts.v — C16: the frame theorem of the heap language. *)
From Coq Require Import List Bool Arith Lia.
Import ListNotations.
From Hive.Model Require Import Heap.

Lemma set_nth_length {A} n (x : A) l : length (set_nth n x l) = length l.
Proof. revert n. induction l as [|h t IH]; intros [|n]; cbn; auto. Qed.
Lemma set_nth_other {A} n m (x : A) l : n <> m -> nth_error (set_nth n x l) m = nth_error l m.
Proof.
  revert n m. induction l as [|h t IH]; intros [|n] [|m] H; cbn; auto; try congruence.
Qed.

Lemma exec1_length h o : length h <= length (exec1 h o).
Proof.
  destruct o; cbn.
  - rewrite app_length. cbn. lia.
  - destruct (nth_error h target); [rewrite set_nth_length|]; lia.
Qed.
Lemma exec1_frame base h o r : safe1 base o = true -> base <= length h -> r < base ->
  nth_error (exec1 h o) r = nth_error h r.
Proof.
  intros S B R. destruct o; cbn in *.
  - apply nth_error_app1. lia.
  - apply Nat.leb_le in S. destruct (nth_error h target); [|reflexivity]. apply set_nth_other. lia.
Qed.

(* safe above any base below the heap's end: the objects below the base stay as they were *)
Lemma frame_from prog : forall h base, base <= length h -> safe base prog = true ->
  forall r, r < base -> nth_error (exec h prog) r = nth_error h r.
Proof.
  unfold exec, safe. induction prog as [|o prog IH]; intros h base B S r R; cbn [fold_left forallb] in *; [reflexivity|].
  apply andb_true_iff in S. destruct S as [S1 S2].
  rewrite (IH (exec1 h o) base); auto.
  - apply exec1_frame with (base := base); auto.
  - pose proof (exec1_length h o). lia.
Qed.

(* frame theorem: a safe activation leaves every object that existed when it started exactly as it was — whatever it
   allocates and however it writes into its own allocations.  (Objects only reference objects that existed before them, so
   this is the whole reachable view of every earlier state.) *)
Theorem frame_sound prog : forall h, safe (length h) prog = true ->
  forall r, r < length h -> nth_error (exec h prog) r = nth_error h r.
Proof. intros h S. apply frame_from; [apply Nat.le_refl|exact S]. Qed.
(* and the converse direction is real: one unsafe write is enough to change an earlier object *)
Example unsafe_write_changes_old_state :
  nth_error (exec [[]; [0]] [Write 1 0 1]) 1 <> nth_error [[]; [0]] 1.
Proof. cbn. discriminate. Qed.
