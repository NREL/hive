(* Proofs/Queue.v — C18: the order in which perform_vehicle_state_updates processes vehicles.  Non-queued vehicles come
   first (ascending id), then the queued ones sorted by (enqueue_time, id) — so when plugs free up during a step, the
   vehicle that joined a queue earlier is always offered a plug before one that joined later. *)
From Hive.Base Require Import Prelude.
From Hive.Model Require Import Types KernelBase SimOps States Step.
From Hive.Gen Require Import Kernels.
From Hive.Proofs Require Import SimFacts Sorted.
From Coq Require Import Sorting.Permutation Sorting.Sorted.

Lemma queue_le_iff a b : queue_le a b = true <->
  (enq_time (v_state a) < enq_time (v_state b) \/ enq_time (v_state a) = enq_time (v_state b) /\ (v_id a <= v_id b)%positive)%Z.
Proof. unfold queue_le. rewrite orb_true_iff, andb_true_iff, Z.ltb_lt, Z.eqb_eq, Pos.leb_le. reflexivity. Qed.
Lemma queue_le_total a b : queue_le a b = true \/ queue_le b a = true.
Proof. rewrite !queue_le_iff. lia. Qed.
Lemma queue_le_trans a b c : queue_le a b = true -> queue_le b c = true -> queue_le a c = true.
Proof. intros H1 H2. apply queue_le_iff in H1, H2. apply queue_le_iff. lia. Qed.
(* the key (enqueue_time, id) is injective on vehicles with distinct ids: the order does not depend on the order in
   which the vehicles were enumerated (also a C01 obligation) *)
Lemma queue_le_antisym a b : queue_le a b = true -> queue_le b a = true -> v_id a = v_id b.
Proof. intros H1 H2. apply queue_le_iff in H1, H2. lia. Qed.

Lemma keyed_vals_NoDup {A} (key : A -> id) (m : pmap A) : keyed key m -> NoDup (map key (sorted_vals m)).
Proof.
  intro K. assert (E : map key (sorted_vals m) = sorted_keys m).
  { unfold sorted_vals, sorted_keys. rewrite map_map. apply map_ext_in. intros [k v] I. apply K, sorted_elements_In, I. }
  rewrite E. apply sorted_elements_keys_NoDup.
Qed.

Definition queued_part (s : Sim) : list Vehicle :=
  sort_by queue_le (filter (fun v => is_queueing (v_state v)) (sorted_vals (vehicles s))).
Definition other_part (s : Sim) : list Vehicle :=
  filter (fun v => negb (is_queueing (v_state v))) (sorted_vals (vehicles s)).

Lemma update_order_split s : update_order s = other_part s ++ queued_part s.
Proof. reflexivity. Qed.
Lemma queued_part_sorted s : StronglySorted (fun a b => queue_le a b = true) (queued_part s).
Proof. apply sort_by_sorted; [apply queue_le_total|apply queue_le_trans]. Qed.
Lemma queued_part_In s v : In v (queued_part s) <-> (exists k, PM.find k (vehicles s) = Some v) /\ is_queueing (v_state v) = true.
Proof. unfold queued_part. rewrite sort_by_In, filter_In, sorted_vals_In. tauto. Qed.
Lemma other_part_In s v : In v (other_part s) <-> (exists k, PM.find k (vehicles s) = Some v) /\ is_queueing (v_state v) = false.
Proof. unfold other_part. rewrite filter_In, sorted_vals_In, negb_true_iff. tauto. Qed.
(* every vehicle is processed (exactly the vehicles of the state, each as often as it is stored) *)
Lemma update_order_perm s : Permutation (update_order s) (sorted_vals (vehicles s)).
Proof.
  rewrite update_order_split. unfold other_part, queued_part.
  eapply Permutation_trans; [apply Permutation_app_head; apply sort_by_perm|].
  generalize (sorted_vals (vehicles s)) as l.
  induction l as [|x l IH]; cbn; [reflexivity|]. destruct (is_queueing (v_state x)); cbn.
  - eapply Permutation_trans; [symmetry; apply Permutation_middle|]. constructor. exact IH.
  - constructor. exact IH.
Qed.

Lemma SS_app_inv {A} (R : A -> A -> Prop) l1 l2 : StronglySorted R (l1 ++ l2) -> StronglySorted R l2.
Proof. induction l1 as [|x l1 IH]; cbn; [auto|]. intro H. inversion H; subst. auto. Qed.

(* FIFO at the level of the processing order: among two queued vehicles, the one with the strictly earlier enqueue time
   (or equal time and smaller id) is updated — and thus offered a free plug — first *)
Theorem earlier_is_processed_first s u v l1 l2 l3 :
  queued_part s = l1 ++ u :: l2 ++ v :: l3 -> queue_le u v = true.
Proof.
  intro E. pose proof (queued_part_sorted s) as S. rewrite E in S.
  apply SS_app_inv in S. inversion S as [|? ? _ Hall]; subst.
  rewrite Forall_forall in Hall. apply Hall. apply in_or_app. right. left. reflexivity.
Qed.
