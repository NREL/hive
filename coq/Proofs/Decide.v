(* Proofs/Decide.v — executable deciders for the hypotheses of the history theorems (vkeys, Inv_counts, Inv_disp, Inv_place,
   Inv_route, Inv_drop, op_ok, an empty log), proved sound, and boolean evaluations of two conclusions (the C03 ledger, the
   C05 / C19 books).  The correspondence harness evaluates them on the initial state and operation list of every
   explored case: the theorems' premises are thereby MEASURED to hold on the histories the implementation was run on
   (non-vacuity), and their conclusions are evaluated on the model's final state as a consistency check. *)
From Hive.Base Require Import Prelude.
From Hive.Model Require Import Types KernelBase SimOps States Step Harness.
From Hive.Gen Require Import Kernels.
From Hive.Proofs Require Import SimFacts VehFrame Macro Guards Count CountInv DispInv PlaceInv LedgerInv AcctInv Walk RouteInv DropInv.
Local Open Scope Z_scope.

Definition all_entries {A} (f : positive -> A -> bool) (m : pmap A) : bool := forallb (fun kv => f (fst kv) (snd kv)) (PM.elements m).
Lemma all_entries_sound {A} (f : positive -> A -> bool) m : all_entries f m = true -> forall k a, find k m = Some a -> f k a = true.
Proof.
  unfold all_entries. intros H k a F. rewrite forallb_forall in H. apply (H (k, a)). apply PM.elements_correct. exact F.
Qed.

Lemma all_entries_and {A} (f g : positive -> A -> bool) m :
  all_entries (fun k a => f k a && g k a) m = true -> all_entries f m = true /\ all_entries g m = true.
Proof. unfold all_entries. induction (PM.elements m) as [|kv l IH]; cbn; [auto|].
  intros [[F G]%andb_true_iff R]%andb_true_iff. destruct (IH R) as [Rf Rg]. rewrite F, G. auto.
Qed.
Lemma keyed_b_sound {A} (key : A -> id) m : all_entries (fun k a => Pos.eqb (key a) k) m = true -> keyed key m.
Proof. intros H k a F. apply Pos.eqb_eq. exact (all_entries_sound _ _ H k a F). Qed.
(* the shape of a decider that looks a record up: refuse if absent, else decide f of it *)
Lemma found_b {A} (o : option A) (f : A -> bool) (P : A -> Prop) :
  (forall a, f a = true -> P a) -> match o with Some a => f a | None => false end = true -> exists a, o = Some a /\ P a.
Proof. intros S H. destruct o as [a|]; [eauto|discriminate]. Qed.

Definition vkeys_b (s : Sim) : bool := all_entries (fun k v => Pos.eqb (v_id v) k) (vehicles s).
Lemma vkeys_b_sound s : vkeys_b s = true -> vkeys s.
Proof. apply (keyed_b_sound v_id). Qed.

Definition opt_pos_eqb (a b : option positive) : bool :=
  match a, b with Some x, Some y => Pos.eqb x y | None, None => true | _, _ => false end.
Lemma opt_pos_eqb_eq a b : opt_pos_eqb a b = true <-> a = b.
Proof. destruct a, b; cbn; try (split; congruence). rewrite Pos.eqb_eq. split; congruence. Qed.

Definition inv_counts_b (s : Sim) : bool :=
  all_entries (fun k st => Pos.eqb (s_id st) k &&
     all_entries (fun c cs => (0 <=? cs_avail cs) && (cs_total cs - cs_avail cs =? cnt (uses_plug (bases s) k c) (vehicles s))
                              && (cs_enq cs =? cnt (queues k c) (vehicles s))) (s_state st)) (stations s)
  && all_entries (fun k b => Pos.eqb (b_id b) k && (0 <=? b_avail b) && (b_total b - b_avail b =? cnt (parks k) (vehicles s))) (bases s).
Lemma inv_counts_b_sound s : inv_counts_b s = true -> Inv_counts s.
Proof.
  unfold inv_counts_b. intros [[SK HS]%all_entries_and [[BK HA]%all_entries_and HU]%all_entries_and]%andb_true_iff.
  split; [exact (keyed_b_sound _ _ SK)|]. split; [exact (keyed_b_sound _ _ BK)|]. split.
  - intros sid cid cs L. unfold slook in L. destruct (find sid (stations s)) as [st|] eqn:F; [|discriminate].
    pose proof (all_entries_sound _ _ (all_entries_sound _ _ HS sid st F) cid cs L) as E. cbn beta in E.
    apply andb_true_iff in E. destruct E as [[A U]%andb_true_iff Q]. apply Z.leb_le in A. apply Z.eqb_eq in U, Q. auto.
  - intros bid b F. split; [apply Z.leb_le, (all_entries_sound _ _ HA bid b F)|apply Z.eqb_eq, (all_entries_sound _ _ HU bid b F)].
Qed.

Definition inv_disp_b (s : Sim) : bool :=
  all_entries (fun rid r => Pos.eqb (r_id r) rid &&
     match r_disp r with
     | None => true
     | Some vid => match find vid (vehicles s) with
                   | Some v => match v_state v with DispatchTrip rid' _ => Pos.eqb rid' rid | _ => false end
                   | None => false
                   end
     end) (requests s).
Lemma inv_disp_b_sound s : inv_disp_b s = true -> Inv_disp s.
Proof.
  unfold inv_disp_b. intros [K H]%all_entries_and. split; [exact (keyed_b_sound _ _ K)|].
  intros rid r vid F D. pose proof (all_entries_sound _ _ H rid r F) as E. cbn beta in E. rewrite D in E. destruct (find vid (vehicles s)) as [v|]; [|discriminate]. exists v. split; [reflexivity|].
  destruct (v_state v); try discriminate. apply Pos.eqb_eq in E. subst. eexists. reflexivity.
Qed.

Definition grants_b (m : Membership) (v : Vehicle) : bool := grant_access_to_membership m (v_mem v).
Definition placed_b (s : Sim) (v : Vehicle) : bool :=
  match v_state v with
  | ChargingStation sid _ | ChargeQueueing sid _ _ =>
      match find sid (stations s) with Some x => Pos.eqb (v_geoid v) (s_geoid x) && grants_b (s_mem x) v | None => false end
  | ReserveBase bid =>
      match find bid (bases s) with Some b => Pos.eqb (v_geoid v) (b_geoid b) && grants_b (b_mem b) v | None => false end
  | ChargingBase bid _ =>
      match find bid (bases s) with
      | Some b => match b_station b with
                  | Some sid => match find sid (stations s) with
                                | Some x => Pos.eqb (v_geoid v) (b_geoid b) && grants_b (b_mem b) v && grants_b (s_mem x) v
                                | None => false end
                  | None => false end
      | None => false end
  | DispatchStation sid _ _ => match find sid (stations s) with Some x => grants_b (s_mem x) v | None => false end
  | DispatchBase bid _ => match find bid (bases s) with Some b => grants_b (b_mem b) v | None => false end
  | DispatchTrip rid _ =>
      match find rid (requests s) with
      | Some q => if opt_pos_eqb (r_disp q) (Some (v_id v)) then grants_b (r_mem q) v else true
      | None => true end
  | ServicingTrip q _ _ => grants_b (r_mem q) v
  | Idle _ | Repositioning _ | OutOfService => true
  end.
Lemma here_b (g g' : positive) (c : bool) : Pos.eqb g g' && c = true -> g = g' /\ c = true.
Proof. rewrite andb_true_iff, Pos.eqb_eq. auto. Qed.
Lemma placed_b_sound s v : placed_b s v = true -> placed s v.
Proof.
  unfold placed_b, placed, grants, grants_b. destruct (v_state v); auto.
  - intros H q F D. rewrite F in H. destruct (opt_pos_eqb (r_disp q) (Some (v_id v))) eqn:E; [exact H|].
    exfalso. apply (proj2 (opt_pos_eqb_eq _ _)) in D. congruence.
  - apply found_b. auto.
  - apply found_b. intro x. apply here_b.
  - apply found_b. intro x. apply here_b.
  - apply found_b. auto.
  - apply found_b. intro b. apply here_b.
  - destruct (find bid (bases s)) as [b|]; [|discriminate]. destruct (b_station b) as [sid|] eqn:T; [|discriminate].
    destruct (find sid (stations s)) as [x|] eqn:Fx; [|discriminate]. intro H. rewrite !andb_true_iff in H. destruct H as [[G A] A2].
    apply Pos.eqb_eq in G. exists b, sid, x. auto 10.
Qed.
Definition inv_place_b (s : Sim) : bool :=
  all_entries (fun k st => Pos.eqb (s_id st) k) (stations s) && all_entries (fun k b => Pos.eqb (b_id b) k) (bases s)
  && all_entries (fun _ v => placed_b s v) (vehicles s).
Lemma inv_place_b_sound s : inv_place_b s = true -> Inv_place s.
Proof.
  unfold inv_place_b. intros [[HS HB]%andb_true_iff HV]%andb_true_iff.
  split; [exact (keyed_b_sound _ _ HS)|]. split; [exact (keyed_b_sound _ _ HB)|].
  intros k v F. apply placed_b_sound. exact (all_entries_sound _ _ HV k v F).
Qed.

Definition on_route_b (s : Sim) (v : Vehicle) : bool :=
  match v_state v with
  | Repositioning r => match walk (v_geoid v) r with Some _ => true | None => false end
  | ServicingTrip q _ r => match walk (v_geoid v) r with Some h => Pos.eqb h (p_geoid (r_dest q)) | None => false end
  | DispatchTrip rid r =>
      match walk (v_geoid v) r with
      | Some h => match find rid (requests s) with
                  | Some q => if opt_pos_eqb (r_disp q) (Some (v_id v)) then Pos.eqb h (r_geoid q) else true
                  | None => true end
      | None => false end
  | DispatchStation sid _ r =>
      match walk (v_geoid v) r, find sid (stations s) with Some h, Some x => Pos.eqb h (s_geoid x) | _, _ => false end
  | DispatchBase bid r =>
      match walk (v_geoid v) r, find bid (bases s) with Some h, Some b => Pos.eqb h (b_geoid b) | _, _ => false end
  | _ => true
  end.
Lemma on_route_b_sound s v : on_route_b s v = true -> on_route s v.
Proof.
  unfold on_route_b, on_route. destruct (v_state v); auto.
  - destruct (walk (v_geoid v) route); [eauto|discriminate].
  - destruct (walk (v_geoid v) route) as [h|]; [|discriminate]. intro H. exists h. split; [reflexivity|]. intros q F D. rewrite F in H.
    rewrite (proj2 (opt_pos_eqb_eq _ _) D) in H. apply Pos.eqb_eq in H. exact H.
  - destruct (walk (v_geoid v) route) as [h|]; [|discriminate]. intro H. apply Pos.eqb_eq in H. congruence.
  - destruct (walk (v_geoid v) route) as [h|]; [|discriminate]. destruct (find sid (stations s)) as [x|]; [|discriminate].
    intro H. apply Pos.eqb_eq in H. eauto.
  - destruct (walk (v_geoid v) route) as [h|]; [|discriminate]. destruct (find bid (bases s)) as [b|]; [|discriminate].
    intro H. apply Pos.eqb_eq in H. eauto.
Qed.
Definition inv_route_b (s : Sim) : bool :=
  (0 <? dt s) && all_entries (fun k st => Pos.eqb (s_id st) k) (stations s) && all_entries (fun k b => Pos.eqb (b_id b) k) (bases s)
  && all_entries (fun _ v => on_route_b s v) (vehicles s).
Lemma inv_route_b_sound s : inv_route_b s = true -> Inv_route s.
Proof.
  unfold inv_route_b. intros [[[D%Z.ltb_lt HS]%andb_true_iff HB]%andb_true_iff HV]%andb_true_iff.
  split; [exact D|]. split; [exact (keyed_b_sound _ _ HS)|]. split; [exact (keyed_b_sound _ _ HB)|].
  intros k v F. apply on_route_b_sound. exact (all_entries_sound _ _ HV k v F).
Qed.

Definition trip_eqb (a b : option (id * bool)) : bool :=
  match a, b with Some (x, p), Some (y, q) => Pos.eqb x y && Bool.eqb p q | None, None => true | _, _ => false end.
Lemma trip_eqb_eq a b : trip_eqb a b = true -> a = b.
Proof. destruct a as [[x p]|], b as [[y q]|]; cbn; try discriminate; auto. rewrite andb_true_iff, Pos.eqb_eq. intros [-> E]. apply Bool.eqb_prop in E. subst. reflexivity. Qed.
Fixpoint wfd_b (l : list Event) : bool :=
  match l with
  | [] => true
  | e :: t => wfd_b t && match e with EvDropoff rid v _ _ => trip_eqb (trip t v) (Some (rid, false)) | _ => true end
  end.
Lemma wfd_b_sound l : wfd_b l = true -> wfd l.
Proof.
  induction l as [|e t IH]; cbn; [auto|]. intro H. apply andb_true_iff in H. destruct H as [H1 H2]. split; [auto|].
  destruct e; auto. apply trip_eqb_eq. exact H2.
Qed.
Definition inv_drop_b (s : Sim) : bool :=
  wfd_b (log s) && all_entries (fun vid v => match v_state v with
     | ServicingTrip q _ [] => match trip (log s) vid with Some (r, _) => Pos.eqb r (r_id q) | None => false end
     | ServicingTrip q _ _ => trip_eqb (trip (log s) vid) (Some (r_id q, false))
     | _ => true end) (vehicles s).
Lemma inv_drop_b_sound s : inv_drop_b s = true -> Inv_drop s.
Proof.
  unfold inv_drop_b. intro H. apply andb_true_iff in H. destruct H as [W C]. split; [apply wfd_b_sound; exact W|].
  intros vid v q d r F S. pose proof (all_entries_sound _ _ C vid v F) as E. cbn beta in E. rewrite S in E. destruct r.
  - destruct (trip (log s) vid) as [[r b]|]; [|discriminate]. apply Pos.eqb_eq in E. subst. eauto.
  - apply trip_eqb_eq. exact E.
Qed.

Fixpoint nodup_b (l : list positive) : bool :=
  match l with [] => true | x :: t => negb (existsb (Pos.eqb x) t) && nodup_b t end.
Lemma nodup_b_sound l : nodup_b l = true -> NoDup l.
Proof.
  induction l as [|x t IH]; cbn; intro H; [constructor|]. apply andb_true_iff in H. destruct H as [N R]. constructor; [|auto].
  intro I. apply negb_true_iff in N. assert (E : existsb (Pos.eqb x) t = true) by (apply existsb_exists; exists x; split; [exact I|apply Pos.eqb_refl]).
  congruence.
Qed.
Definition op_ok_b (o : Op) : bool :=
  match o with
  | OpApply is => nodup_b (map instr_vid is)
  | OpAdmit rows => forallb (fun r => match r_disp r with None => true | Some _ => false end) rows
  | _ => true
  end.
Lemma op_ok_b_sound o : op_ok_b o = true -> op_ok o.
Proof.
  destruct o; cbn; auto.
  - apply nodup_b_sound.
  - intro H. apply Forall_forall. intros r I. rewrite forallb_forall in H. specialize (H r I). destruct (r_disp r); [discriminate|reflexivity].
Qed.
Lemma ops_ok_b_sound ops : forallb op_ok_b ops = true -> Forall op_ok ops.
Proof. intro H. apply Forall_forall. intros o I. rewrite forallb_forall in H. apply op_ok_b_sound. auto. Qed.

(* the harness environment's geofence is the constant True (hypothesis of the C17 theorem) *)
Lemma mk_hav_env_fence parents gctab midtab mechs cancel fleets scheds g :
  e_fence (mk_hav_env parents gctab midtab mechs cancel fleets scheds) g = true.
Proof. reflexivity. Qed.

Definition step_ops (ops : list (XOp * tok)) : option (list Op) :=
  fold_right (fun x acc => match fst x, acc with XStep o, Some l => Some (o :: l) | _, _ => None end) (Some []) ops.
Definition all_inv_b (s : Sim) : bool := vkeys_b s && inv_counts_b s && inv_disp_b s && inv_place_b s && inv_route_b s && inv_drop_b s.
Lemma all_inv_b_sound s : all_inv_b s = true -> vkeys s /\ Inv_counts s /\ Inv_disp s /\ Inv_place s /\ Inv_route s /\ Inv_drop s.
Proof.
  unfold all_inv_b. intros [[[[[K C]%andb_true_iff D]%andb_true_iff P]%andb_true_iff Rt]%andb_true_iff Dr]%andb_true_iff.
  exact (conj (vkeys_b_sound _ K) (conj (inv_counts_b_sound _ C) (conj (inv_disp_b_sound _ D)
        (conj (inv_place_b_sound _ P) (conj (inv_route_b_sound _ Rt) (inv_drop_b_sound _ Dr)))))).
Qed.
(* C03 ledger: evaluated as a consistency check of the conclusion; the premise is "nothing filed yet" *)
Definition rstatus_eqb (a b : rstatus) : bool :=
  match a, b with Unknown, Unknown | Waiting, Waiting | PickedUp, PickedUp | Cancelled, Cancelled => true | _, _ => false end.
Fixpoint wf_b (init : id -> rstatus) (l : list Event) : bool :=
  match l with
  | [] => true
  | e :: t => wf_b init t && match e with
                             | EvPickup r _ _ _ _ | EvCancel r _ _ => rstatus_eqb (status init t r) Waiting
                             | _ => true
                             end
  end.
Lemma wf_b_sound init l : wf_b init l = true -> wf init l.
Proof.
  induction l as [|e t IH]; cbn; [auto|]. intro H. apply andb_true_iff in H. destruct H as [H1 H2]. split; [auto|].
  destruct e; auto; destruct (status init t rid); cbn in H2; congruence.
Qed.
Definition ev_rid (e : Event) : list id := match e with EvAdd r _ | EvPickup r _ _ _ _ | EvCancel r _ _ => [r] | _ => [] end.
Definition ledger_b (init : id -> rstatus) (s : Sim) : bool :=
  wf_b init (log s) &&
  forallb (fun rid => Bool.eqb (match find rid (requests s) with Some _ => true | None => false end) (rstatus_eqb (status init (log s) rid) Waiting))
          (map fst (PM.elements (requests s)) ++ flat_map ev_rid (log s)).
Definition nil_log_b (s : Sim) : bool := match log s with [] => true | _ => false end.

(* C05 / C19 books: the conclusion, evaluated as a consistency check *)
Definition books_b (s0 s : Sim) : bool :=
  all_entries (fun k v0 => match find k (vehicles s) with
     | Some v => Qeq_bool (v_odo v) (v_odo v0 + total ev_moved (log s) k) && Qeq_bool (v_gained v) (v_gained v0 + total ev_charged (log s) k)
                 && Qeq_bool (v_balance v) (v_balance v0 + total ev_fare (log s) k - total ev_paid (log s) k)
     | None => false end) (vehicles s0)
  && all_entries (fun k x0 => match find k (stations s) with
     | Some x => Qeq_bool (s_balance x) (s_balance x0 + total ev_recv (log s) k) && Qeq_bool (s_disp_e x) (s_disp_e x0 + total (ev_disp Electric) (log s) k)
                 && Qeq_bool (s_disp_g x) (s_disp_g x0 + total (ev_disp Gasoline) (log s) k)
     | None => false end) (stations s0).

(* 0: not a history over the step alphabet; 1: some premise fails; 2: premises hold and the conclusions evaluate to true on the
   model's final state; 3: premises hold, a conclusion evaluates to false (would contradict the theorems) *)
Definition premises_case (env : Env) (s : Sim) (ops : list (XOp * tok)) (_ : Z) : Z :=
  match step_ops ops with
  | None => 0
  | Some os =>
      if all_inv_b s && nil_log_b s && forallb op_ok_b os then
        let s' := fold_left (fun a o => norm_sim (step_op env a o)) os s in
        if all_inv_b s' && ledger_b (init_of s) s' && books_b s s' then 2 else 3
      else 1
  end.

(* premises decided true => every history theorem applies (this is what code 2 / 3 certify about the case) *)
Theorem premises_apply env s os : (forall g, e_fence env g = true) -> (forall a b, walk (p_geoid a) (e_route env a b) = Some (p_geoid b)) ->
  all_inv_b s && nil_log_b s && forallb op_ok_b os = true ->
  let s' := fold_left (step_op env) os s in vkeys s' /\ Inv_counts s' /\ Inv_disp s' /\ Inv_place s' /\ Inv_route s' /\ Inv_drop s' /\ Inv_ledger (init_of s) s' /\
  (forall k v0, find k (vehicles s) = Some v0 -> exists v, find k (vehicles s') = Some v /\ vacct (log s') k v0 v) /\
  (forall k x0, find k (stations s) = Some x0 -> exists x, find k (stations s') = Some x /\ sacct (log s') k x0 x).
Proof.
  intros Hf Hr [[(K & C & D & P & Rt & Dr)%all_inv_b_sound NL]%andb_true_iff O%ops_ok_b_sound]%andb_true_iff.
  assert (L : log s = []) by (unfold nil_log_b in NL; destruct (log s); [reflexivity|discriminate]).
  cbv zeta. split; [apply (counts_invariant env os s K C O)|]. split; [apply (counts_invariant env os s K C O)|].
  split; [apply (disp_invariant env Hf os s K D O)|]. split; [apply (place_invariant env os s K P O)|]. split; [apply (route_invariant env Hr os s K Rt O)|]. split; [apply (drop_invariant env os s K Dr O)|].
  split; [apply (ledger_invariant env (init_of s) os s K (Inv_ledger_initial s L) O)|].
  apply (books_over_histories env os s K (proj1 C) O L).
Qed.
