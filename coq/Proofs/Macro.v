(* Proofs/Macro.v — the macro frame theorem.  Over any operation of the step alphabet (one instruction per vehicle, as
   StepSimulation guarantees), the state evolves through a sequence of MACRO steps: a full exit-then-enter transition out of
   the vehicle's CURRENT activity, one _perform_update of the vehicle's CURRENT activity when its terminal condition does not hold,
   the default transition out of a terminal activity followed by the first _perform_update of the activity entered, one
   cancellation, one admission, one price update, one driver update, a clock tick, or a ghost update.  History-level invariants
   are then proved per macro step. *)
From Hive.Base Require Import Prelude.
From Hive.Model Require Import Types KernelBase SimOps States Step.
From Hive.Gen Require Import Kernels.
From Hive.Proofs Require Import SimFacts Writes Reach Sorted VehFrame Trip Queue.
From Coq Require Import Sorting.Permutation.

Section M.
Variable env : Env.

Definition vstate_of (s : Sim) (vid : id) : option VState := option_map v_state (find vid (vehicles s)).

(* where the route of a new activity comes from: the road network's router, asked for a route from the vehicle's place *)
Definition sourced (s : Sim) (vid : id) (nx : VState) : Prop :=
  forall r, state_route nx = Some r -> exists a b v, r = e_route env a b /\ find vid (vehicles s) = Some v /\ p_geoid a = v_geoid v /\
    (* a trip is served along the router's answer to (vehicle's place, destination of the request it carries) *)
    (forall q d, nx = ServicingTrip q d r -> b = r_dest q).

Lemma vstate_of_Some s vid st : vstate_of s vid = Some st <-> exists v, find vid (vehicles s) = Some v /\ v_state v = st.
Proof. unfold vstate_of. destruct (find vid (vehicles s)) as [v|]; cbn; split; [intro H; inv H; eauto|intros (x & H & <-); inv H; reflexivity|discriminate|intros (x & H & _); discriminate]. Qed.

Inductive MStep : Sim -> Sim -> Prop :=
| M_transition s vid st nx s' : vstate_of s vid = Some st -> transition env s (vid, st) (vid, nx) = Ok s' -> sourced s vid nx -> MStep s s'
| M_perform s vid st s' : vstate_of s vid = Some st -> perform_update env vid st s = Ok s' -> terminal env vid st s = false -> MStep s s'
| M_cancel s rid : MStep s (cancel_one env s rid)
| M_admit s r : r_disp r = None -> MStep s (admit_request env s r)
| M_price s sid prices : MStep s (update_station_prices env s sid prices)
| M_driver rt s v s' : driver_update env rt s v = Ok s' -> MStep s s'
| M_ghost s s' : same_entities s s' -> log s' = log s -> MStep s s'
| M_tick s : MStep s (sim_tick s)
(* VehicleState.default_update under a terminal condition: the default transition immediately followed by the first _perform_update
   of the activity entered *)
| M_default s vid st nx s1 v' s' : vstate_of s vid = Some st -> terminal env vid st s = true -> default_terminal_state env vid st s = Ok nx ->
    transition env s (vid, st) (vid, nx) = Ok s1 -> find vid (vehicles s1) = Some v' -> perform_update env vid (v_state v') s1 = Ok s' -> MStep s s'.
Inductive MStar : Sim -> Sim -> Prop :=
| MS_refl s : MStar s s
| MS_step s1 s2 s3 : MStep s1 s2 -> MStar s2 s3 -> MStar s1 s3.
Lemma MStar_trans a b c : MStar a b -> MStar b c -> MStar a c.
Proof. induction 1; auto. intro. econstructor; eauto. Qed.
Lemma MStar_one a b : MStep a b -> MStar a b.
Proof. intro. econstructor; [eassumption|constructor]. Qed.
Lemma MStar_snoc a b c : MStar a b -> MStep b c -> MStar a c.
Proof. intros M S. eapply MStar_trans; [exact M|apply MStar_one, S]. Qed.

Definition vonly (vid : id) (s s' : Sim) : Prop :=
  vkeys s -> vkeys s' /\ forall k, k <> vid -> find k (vehicles s') = find k (vehicles s).
Lemma vonly_refl vid s : vonly vid s s.
Proof. intro K. auto. Qed.
Lemma vonly_trans vid a b c : vonly vid a b -> vonly vid b c -> vonly vid a c.
Proof. intros A B K. destruct (A K) as [K2 E2]. destruct (B K2) as [K3 E3]. split; [exact K3|]. intros k N. rewrite E3, E2; auto. Qed.
Lemma vkeys_of_same s s' : vehicles s' = vehicles s -> vkeys s -> vkeys s'.
Proof. intros V K. unfold vkeys. rewrite V. exact K. Qed.
Lemma vonly_of_add vid s s' w : vehicles s' = PM.add (v_id w) w (vehicles s) -> v_id w = vid -> vonly vid s s'.
Proof.
  intros V Hid K. unfold vkeys. rewrite V. split; [apply (keyed_add v_id); exact K|].
  intros k N. rewrite find_add, Hid. destruct (Pos.eqb_spec k vid); [contradiction|reflexivity].
Qed.
Theorem Writes_vonly vid E A T s s' : Writes env (on vid) E A T s s' -> vonly vid s s'.
Proof.
  apply Writes_lift; [apply vonly_refl|apply vonly_trans|]. clear s s'. intros s s' W.
  destruct (Write_vehicles _ _ _ _ _ _ _ W) as [Ve|(k & old & w & F & [-> R] & Ve)]; [intro K; split; [eapply vkeys_of_same; eauto|rewrite Ve; auto]|].
  intro K. apply (vonly_of_add vid s s' w Ve); [|exact K]. rewrite (VRel_id _ _ R). apply K. exact F.
Qed.
Lemma vonly_modv vid s w s' : modify_vehicle env s w = Ok s' -> v_id w = vid -> vonly vid s s'.
Proof. intros M. apply modify_vehicle_spec in M. apply vonly_of_add, M. Qed.
Lemma vs_enter_vonly vid st s s' : vs_enter env (vid, st) s = Ok s' -> vonly vid s s'.
Proof. intro H. eapply Writes_vonly, (enter_writes env (fun _ => True) (fun _ => True) True); eauto. Qed.
Lemma vs_exit_same vs nx s s' : vs_exit env vs nx s = Ok s' -> vehicles s' = vehicles s.
Proof.
  intro H. apply (Writes_lift env (fun _ _ _ => False) (fun _ => True) (fun _ => True) True (fun a b => vehicles b = vehicles a));
    [reflexivity|intros; congruence| |eapply exit_writes; eauto].
  intros a b W. destruct (Write_vehicles _ _ _ _ _ _ _ W) as [Ve|(_ & _ & _ & _ & [] & _)]. exact Ve.
Qed.
Lemma transition_vonly s vid st nx s' : transition env s (vid, st) (vid, nx) = Ok s' -> vonly vid s s'.
Proof. intro H. eapply Writes_vonly, (transition_writes env (fun _ => True) (fun _ => True) True); eauto. Qed.
Lemma perform_update_vonly vid st s s' : perform_update env vid st s = Ok s' -> vonly vid s s'.
Proof. intro H. eapply Writes_vonly, (perform_writes env (fun _ => True) (fun _ => True) True); eauto. Qed.
Lemma step_vehicle_vonly s vid st : vonly vid s (step_vehicle env s (vid, st)).
Proof. eapply Writes_vonly, (step_vehicle_writes env (fun _ => True) True s (vid, st)). Qed.

Lemma fold_invariant {X} (P : Sim -> Prop) (f : Sim -> X -> Sim) (l : list X) : (forall s x, In x l -> P s -> P (f s x)) -> forall s, P s -> P (fold_left f l s).
Proof.
  induction l as [|x l IH]; intros Hf s HP; cbn [fold_left]; [exact HP|].
  apply IH; [intros a y Iy; apply Hf; right; exact Iy|apply Hf; [left; reflexivity|exact HP]].
Qed.
Lemma fold_restart_invariant {X} (P : Sim -> Prop) (f : Sim -> X -> res Sim) s0 (l : list X) : (forall s x s', P s -> f s x = Ok s' -> P s') -> P s0 ->
  forall s, P s -> P (fold_left (fun acc x => match f acc x with Ok s' => s' | _ => s0 end) l s).
Proof. intros Hf H0. induction l as [|x l IH]; intros s HP; cbn [fold_left]; [exact HP|]. apply IH. destruct (f s x) eqn:E; eauto. Qed.

Lemma fold_untouched {X} (key : X -> id) (f : Sim -> X -> Sim) k (l : list X) : (forall s x, vonly (key x) s (f s x)) -> ~ In k (map key l) ->
  forall s, vkeys s -> find k (vehicles (fold_left f l s)) = find k (vehicles s).
Proof.
  intro Hf. induction l as [|x l IH]; intros Nin s K; cbn [fold_left]; [reflexivity|].
  destruct (Hf s x K) as [K1 Oth]. rewrite IH; [|intro I; apply Nin; right; exact I|exact K1].
  apply Oth. intro E. apply Nin. left. symmetry. exact E.
Qed.

(* a fold over distinct vehicles: element x is processed on behalf of vehicle key x, which is in activity st x when its turn comes
   because the other elements' steps leave it alone; Q is what else the step of x needs of the state, and has to survive the
   steps of the other elements *)
Lemma fold_vehicles_invariant {X} (key : X -> id) (st : X -> VState) (f : Sim -> X -> Sim) (P : Sim -> Prop) (Q : Sim -> X -> Prop) (l : list X) :
  NoDup (map key l) ->
  (forall s x, In x l -> vonly (key x) s (f s x)) ->
  (forall s x, In x l -> vkeys s -> P s -> vstate_of s (key x) = Some (st x) -> Q s x -> P (f s x)) ->
  (forall s x y, In x l -> In y l -> key y <> key x -> vkeys s -> P s -> vstate_of s (key x) = Some (st x) -> Q s x -> Q s y -> Q (f s x) y) ->
  forall s, vkeys s -> P s -> (forall x, In x l -> vstate_of s (key x) = Some (st x) /\ Q s x) ->
  vkeys (fold_left f l s) /\ P (fold_left f l s).
Proof.
  induction l as [|x l IH]; intros Nd Hv HP HQ s K I Hl; cbn [fold_left]; [auto|].
  inversion Nd as [|? ? Nin Nd']; subst.
  destruct (Hl x (or_introl eq_refl)) as [Sx Qx]. destruct (Hv s x (or_introl eq_refl) K) as [K1 Oth].
  apply IH; try assumption.
  - intros s0 y Iy. apply Hv. right. exact Iy.
  - intros s0 y Iy. apply HP. right. exact Iy.
  - intros s0 y z Iy Iz. apply HQ; right; assumption.
  - apply HP; auto. left. reflexivity.
  - intros y Iy. destruct (Hl y (or_intror Iy)) as [Sy Qy].
    assert (Ne : key y <> key x) by (intro E; apply Nin; rewrite <- E; apply in_map; exact Iy).
    split; [unfold vstate_of; rewrite Oth by exact Ne; exact Sy|apply HQ; auto; [left; reflexivity|right; exact Iy]].
Qed.

Lemma default_terminal_sourced vid st s nx : default_terminal_state env vid st s = Ok nx -> sourced s vid nx.
Proof.
  intros H r Hr. destruct st; cbn in H; repeat dmatch H; inv H; cbn in Hr; try discriminate Hr.
  inv Hr. apply negb_false_iff in E1. apply Pos.eqb_eq in E1. exists (r_pos r0), (r_dest r0), v. split; [reflexivity|]. split; [first [exact E|reflexivity]|]. split; [exact E1|]. intros q d Eq. inv Eq. reflexivity.
Qed.
(* VehicleState.update: _perform_update unless the terminal condition holds; then the default transition followed by the first
   _perform_update of the activity entered *)
Lemma vs_update_cases vid st s s' : vs_update env vid st s = Ok s' ->
  (terminal env vid st s = false /\ perform_update env vid st s = Ok s') \/
  (terminal env vid st s = true /\ exists nx s1 v', default_terminal_state env vid st s = Ok nx /\ transition env s (vid, st) (vid, nx) = Ok s1 /\
     find vid (vehicles s1) = Some v' /\ perform_update env vid (v_state v') s1 = Ok s').
Proof.
  unfold vs_update. intro H. destruct (terminal env vid st s); [right|left; split; [reflexivity|exact H]]. split; [reflexivity|].
  destruct (default_terminal_state env vid st s) as [nx| |] eqn:D; try discriminate.
  destruct (transition env s (vid, st) (vid, nx)) as [s1| |] eqn:T; try discriminate.
  destruct (find vid (vehicles s1)) as [v'|] eqn:F; [|discriminate]. exists nx, s1, v'. auto.
Qed.
Lemma vs_update_macro vid st s s' : vstate_of s vid = Some st -> vs_update env vid st s = Ok s' -> MStar s s'.
Proof.
  intros Hst H. destruct (vs_update_cases _ _ _ _ H) as [[Tm U]|(Tm & nx & s1 & v' & D & T & F & U)]; apply MStar_one; [eapply M_perform|eapply M_default]; eauto.
Qed.
Lemma step_vehicle_macro s vid st : vstate_of s vid = Some st -> MStar s (step_vehicle env s (vid, st)).
Proof.
  intro Hst. unfold step_vehicle. cbn [fst snd]. destruct (vs_update env vid st s) eqn:E; try constructor. eapply vs_update_macro; eauto.
Qed.

Lemma fold_vehicles_macro (l : list (id * VState)) : NoDup (map fst l) -> forall s, vkeys s ->
  (forall vs, In vs l -> vstate_of s (fst vs) = Some (snd vs)) ->
  MStar s (fold_left (step_vehicle env) l s) /\ vkeys (fold_left (step_vehicle env) l s).
Proof.
  intros Nd s K Hst. apply and_comm.
  apply (fold_vehicles_invariant fst snd (step_vehicle env) (MStar s) (fun _ _ => True)); auto; [| |constructor].
  - intros a [vid st] _. apply step_vehicle_vonly.
  - intros a [vid st] _ _ M Ha _. eapply MStar_trans; [exact M|apply step_vehicle_macro, Ha].
Qed.

Lemma update_order_ids_NoDup s : vkeys s -> NoDup (map v_id (update_order s)).
Proof.
  intro K. eapply Permutation_NoDup; [apply Permutation_map; symmetry; apply update_order_perm|apply (keyed_vals_NoDup v_id), K].
Qed.
Lemma update_order_states s v : In v (update_order s) -> vkeys s -> vstate_of s (v_id v) = Some (v_state v).
Proof.
  intros I K. apply (Permutation_in _ (update_order_perm s)) in I. apply sorted_vals_In in I. destruct I as [k F].
  assert (v_id v = k) by (apply K; exact F). subst k. unfold vstate_of, find. rewrite F. reflexivity.
Qed.
Lemma fold_step_vehicle_map (l : list Vehicle) : forall s, fold_left (fun acc v => step_vehicle env acc (v_id v, v_state v)) l s
  = fold_left (step_vehicle env) (map (fun v => (v_id v, v_state v)) l) s.
Proof. induction l as [|x l IH]; intro s; cbn; [reflexivity|apply IH]. Qed.
Lemma perform_vehicle_state_updates_macro s : vkeys s -> MStar s (perform_vehicle_state_updates env s).
Proof.
  intro K. unfold perform_vehicle_state_updates. rewrite fold_step_vehicle_map. apply fold_vehicles_macro; auto.
  - rewrite map_map. cbn. apply update_order_ids_NoDup. exact K.
  - intros vs I. apply in_map_iff in I. destruct I as [v [Ev Iv]]. subst vs. cbn. apply update_order_states; auto.
Qed.
(* default_update: to preserve P it is enough to preserve it along a default transition and along _perform_update *)
Lemma update_vehicles_invariant (P : Sim -> Prop) :
  (forall s vid st nx s', vkeys s -> P s -> vstate_of s vid = Some st -> default_terminal_state env vid st s = Ok nx ->
     transition env s (vid, st) (vid, nx) = Ok s' -> P s') ->
  (forall s vid st s', vkeys s -> P s -> vstate_of s vid = Some st -> perform_update env vid st s = Ok s' -> P s') ->
  forall s, vkeys s -> P s -> vkeys (perform_vehicle_state_updates env s) /\ P (perform_vehicle_state_updates env s).
Proof.
  intros Ht Hp s K I. unfold perform_vehicle_state_updates.
  rewrite fold_step_vehicle_map.
  apply (fold_vehicles_invariant fst snd (step_vehicle env) P (fun _ _ => True)); auto.
  - rewrite map_map. cbn. apply update_order_ids_NoDup. exact K.
  - intros s0 [vid st] _. apply step_vehicle_vonly.
  - intros s0 [vid st] _ K0 I0 Hst _. unfold step_vehicle. cbn [fst snd] in *. destruct (vs_update env vid st s0) as [s'| |] eqn:U; try exact I0.
    destruct (vs_update_cases _ _ _ _ U) as [[_ U1]|(_ & nx & s1 & v' & D & T & Fv' & U1)]; [eauto|].
    eapply Hp; [eapply transition_vonly; eauto|eapply Ht; eauto|apply vstate_of_Some; eauto|exact U1].
  - intros vs Iv. apply in_map_iff in Iv. destruct Iv as [v [<- Iv]]. split; [apply update_order_states; auto|exact Logic.I].
Qed.


Lemma apply_instruction_spec s i p n : apply_instruction env s i = Ok (p, n) ->
  fst p = instr_vid i /\ fst n = instr_vid i /\ vstate_of s (instr_vid i) = Some (snd p) /\ sourced s (instr_vid i) (snd n).
Proof.
  unfold apply_instruction, vstate_of, sourced. destruct (find (instr_vid i) (vehicles s)) as [v|] eqn:F; [|discriminate].
  destruct i; cbn in *; intro H; repeat dmatch H; inv H; cbn; repeat split; auto; intros rt0 Hr; try discriminate Hr; inv Hr;
    eexists _, _, v; repeat split; auto; intros q0 d0 Eq; discriminate Eq.
Qed.
Definition phase1_list (s : Sim) (is : list Instr) : list (Instr * (VS * VS)) :=
  flat_map (fun i => match apply_instruction env s i with Ok r => [(i, r)] | _ => [] end) is.
Lemma phase1_is_flat_map s is : forall acc, fold_left (apply_phase1 env s) is acc = acc ++ phase1_list s is.
Proof.
  induction is as [|i is IH]; intro acc; cbn [fold_left phase1_list flat_map]; [rewrite app_nil_r; reflexivity|].
  rewrite IH. unfold apply_phase1. destruct (apply_instruction env s i); cbn; rewrite <- ?app_assoc; reflexivity.
Qed.
Lemma apply_instructions_as_fold s is : apply_instructions env s is = fold_left (apply_phase2 env) (phase1_list s is) s.
Proof. unfold apply_instructions. rewrite phase1_is_flat_map. reflexivity. Qed.
Lemma phase1_list_in s is e : In e (phase1_list s is) -> In (fst e) is /\ apply_instruction env s (fst e) = Ok (snd e).
Proof.
  unfold phase1_list. rewrite in_flat_map. intros [i [Hi He]]. destruct (apply_instruction env s i) as [r| |] eqn:A; cbn in He; [|contradiction|contradiction].
  destruct He as [<-|[]]. cbn. auto.
Qed.
Lemma phase1_list_spec s is e : In e (phase1_list s is) -> exists i pst nst, e = (i, ((instr_vid i, pst), (instr_vid i, nst))) /\ In i is /\
  apply_instruction env s i = Ok ((instr_vid i, pst), (instr_vid i, nst)) /\ vstate_of s (instr_vid i) = Some pst /\ sourced s (instr_vid i) nst.
Proof.
  destruct e as [i [[pv pst] [nv nst]]]. intro Ie. apply phase1_list_in in Ie. destruct Ie as [Ii A]. cbn [fst snd] in Ii, A.
  destruct (apply_instruction_spec _ _ _ _ A) as (E1 & E2 & E3 & E4). cbn [fst snd] in E1, E2, E3, E4. subst pv nv. exists i, pst, nst. auto.
Qed.
Lemma phase1_list_NoDup s is : NoDup (map instr_vid is) -> NoDup (map (fun e => instr_vid (fst e)) (phase1_list s is)).
Proof.
  induction is as [|i is IH]; cbn [phase1_list flat_map map]; intro Nd; [constructor|]. inversion Nd as [|? ? Nin Nd']; subst.
  rewrite map_app. destruct (apply_instruction env s i); cbn [map app]; try (apply IH; exact Nd').
  constructor; [|apply IH; exact Nd']. cbn. intro I. apply Nin. apply in_map_iff in I. destruct I as [e [Ee Ie]].
  apply phase1_list_in in Ie. destruct Ie as [Ie _]. apply in_map_iff. exists (fst e). auto.
Qed.

Lemma apply_phase2_vonly s i vid st nx : vonly vid s (apply_phase2 env s (i, ((vid, st), (vid, nx)))).
Proof. eapply Writes_vonly, (apply_phase2_writes env (fun _ => True) True). Qed.
Lemma apply_phase2_macro s i vid st nx : vstate_of s vid = Some st -> sourced s vid nx -> MStar s (apply_phase2 env s (i, ((vid, st), (vid, nx)))).
Proof.
  intros Hst Hsrc. unfold apply_phase2. cbn [fst snd]. destruct (transition env s (vid, st) (vid, nx)) eqn:E; try constructor.
  eapply MS_step; [eapply M_transition; eauto|]. apply MStar_one, M_ghost; [unfold same_entities; cbn; repeat split|reflexivity].
Qed.
Lemma sourced_vonly k s s' vid nx : vonly k s s' -> vkeys s -> vid <> k -> sourced s vid nx -> sourced s' vid nx.
Proof. intros V K N S r Hr. destruct (S r Hr) as (a & b & v & H). exists a, b, v. rewrite (proj2 (V K)) by exact N. exact H. Qed.
Lemma apply_instructions_macro s is : vkeys s -> NoDup (map instr_vid is) -> MStar s (apply_instructions env s is).
Proof.
  intros K Nd. rewrite apply_instructions_as_fold.
  eapply proj2, (fold_vehicles_invariant (fun e => instr_vid (fst e)) (fun e => snd (fst (snd e))) (apply_phase2 env) (MStar s)
                   (fun a e => sourced a (instr_vid (fst e)) (snd (snd (snd e))))); [apply phase1_list_NoDup, Nd| | | |exact K|constructor|].
  - intros a e Ie. destruct (phase1_list_spec _ _ _ Ie) as (i & pst & nst & -> & _). apply apply_phase2_vonly.
  - intros a e Ie _ M Hst Src. destruct (phase1_list_spec _ _ _ Ie) as (i & pst & nst & -> & _).
    eapply MStar_trans; [exact M|apply apply_phase2_macro; assumption].
  - intros a x y Ix _ Ne K0 _ _ _ Sy. destruct (phase1_list_spec _ _ _ Ix) as (i & pst & nst & -> & _).
    eapply sourced_vonly; [apply apply_phase2_vonly|exact K0|exact Ne|exact Sy].
  - intros e Ie. destruct (phase1_list_spec _ _ _ Ie) as (i & pst & nst & -> & _ & _ & Hst & Src). split; assumption.
Qed.

Definition op_ok (o : Op) : Prop :=
  match o with
  | OpApply is => NoDup (map instr_vid is)                 (* StepSimulation pops one instruction per vehicle *)
  | OpAdmit rows => Forall (fun r => r_disp r = None) rows   (* Request.from_row never sets a dispatched vehicle *)
  | _ => True
  end.

Theorem step_op_macro s o : vkeys s -> op_ok o -> MStar s (step_op env s o).
Proof.
  intros K Hok. destruct o; cbn [step_op].
  - apply apply_instructions_macro; assumption.
  - apply perform_vehicle_state_updates_macro. exact K.
  - unfold cancel_requests. apply (fold_invariant (MStar s)); [|constructor]. intros a rid _ M. eapply MStar_snoc; [exact M|apply M_cancel].
  - unfold admit_requests. apply (fold_invariant (MStar s)); [|constructor]. intros a r Ir M.
    eapply MStar_snoc; [exact M|apply M_admit, (proj1 (Forall_forall _ _) Hok r Ir)].
  - apply (fold_invariant (MStar s)); [|constructor]. intros a u _ M. eapply MStar_snoc; [exact M|apply M_price].
  - unfold perform_driver_state_updates. apply (fold_restart_invariant (MStar s)); [|constructor|constructor].
    intros a v a' M H. eapply MStar_snoc; [exact M|eapply M_driver, H].
  - apply MStar_one, M_tick.
  - apply MStar_one, M_ghost; [unfold same_entities; cbn; repeat split|reflexivity].
Qed.

Lemma mstep_vkeys s s' : vkeys s -> MStep s s' -> vkeys s'.
Proof.
  intros K M. destruct M.
  - apply (proj1 (transition_vonly _ _ _ _ _ H0 K)).
  - apply (proj1 (perform_update_vonly _ _ _ _ H0 K)).
  - eapply (Writes_vkeys env anyhow); [auto|apply (cancel_one_writes env (fun _ => True) True)|exact K].
  - eapply (Writes_vkeys env anyhow); [auto|apply (admit_request_writes env (fun _ => True) True); exact I|exact K].
  - eapply (Writes_vkeys env anyhow); [auto|apply (update_station_prices_writes env (fun _ => True) True)|exact K].
  - eapply (Writes_vkeys env anyhow); [auto|eapply (driver_update_writes env (fun _ => True) True); eassumption|exact K].
  - destruct H as (V & _). eapply vkeys_of_same; eauto.
  - exact K.
  - destruct (transition_vonly _ _ _ _ _ H2 K) as [K1 _]. apply (proj1 (perform_update_vonly _ _ _ _ H4 K1)).
Qed.

(* to preserve P along macro steps it is enough to preserve it along transitions, _perform_update and the six other operations:
   M_default is a transition followed by a _perform_update *)
Lemma mstep_cases (P : Sim -> Prop) :
  (forall s vid st nx s', vkeys s -> P s -> vstate_of s vid = Some st -> sourced s vid nx -> transition env s (vid, st) (vid, nx) = Ok s' -> P s') ->
  (forall s vid st s', vkeys s -> P s -> vstate_of s vid = Some st -> perform_update env vid st s = Ok s' -> P s') ->
  (forall s rid, P s -> P (cancel_one env s rid)) ->
  (forall s r, r_disp r = None -> P s -> P (admit_request env s r)) ->
  (forall s sid prices, P s -> P (update_station_prices env s sid prices)) ->
  (forall rt s v s', vkeys s -> P s -> driver_update env rt s v = Ok s' -> P s') ->
  (forall s s', same_entities s s' -> log s' = log s -> P s -> P s') -> (forall s, P s -> P (sim_tick s)) ->
  forall s s', vkeys s -> P s -> MStep s s' -> P s'.
Proof.
  intros Ht Hp Hc Ha Hpr Hd Hg Htk s s' K I M.
  destruct M; [eapply Ht; eassumption|eapply Hp; eassumption|apply Hc; exact I|apply Ha; assumption|apply Hpr; exact I
              |eapply Hd; eassumption|eapply Hg; eassumption|apply Htk; exact I|].
  eapply Hp; [eapply transition_vonly; eauto|eapply Ht; eauto using default_terminal_sourced|apply vstate_of_Some; eauto|eassumption].
Qed.

Lemma mstar_invariant (P : Sim -> Prop) : (forall s s', vkeys s -> P s -> MStep s s' -> P s') ->
  forall s s', MStar s s' -> vkeys s -> P s -> vkeys s' /\ P s'.
Proof.
  intros Hstep s s' M. induction M as [|s1 s2 s3 M _ IH]; intros K I; [auto|]. apply IH; [eapply mstep_vkeys; eauto|eapply Hstep; eauto].
Qed.

Theorem history_invariant (P : Sim -> Prop) : (forall s s', vkeys s -> P s -> MStep s s' -> P s') ->
  forall ops s0, vkeys s0 -> P s0 -> Forall op_ok ops -> vkeys (fold_left (step_op env) ops s0) /\ P (fold_left (step_op env) ops s0).
Proof.
  intros Hstep. induction ops as [|o ops IH]; intros s0 K I Hok; cbn [fold_left]; [auto|].
  inversion Hok; subst.
  destruct (mstar_invariant P Hstep _ _ (step_op_macro s0 o K H1) K I) as [K1 I1]. apply IH; auto.
Qed.
End M.

