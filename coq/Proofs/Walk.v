(* Proofs/Walk.v — C06 / C07: routes as connected walks.  `walk g r = Some h` says that r is a chain of links from g to h (each link
   starts where the previous one ended).  routetraversal.traverse turns a walk from g to h into a driven part followed by a
   remaining part that together are again a walk from g to h: the vehicle's new place (the end of the driven part) is where the
   remaining route starts, and the remaining route still ends where the original one did. *)
From Hive.Base Require Import Prelude.
From Hive.Model Require Import Types KernelBase SimOps States.
From Hive.Gen Require Import Kernels.
From Hive.Proofs Require Import Traverse.
Local Open Scope Z_scope.

Fixpoint walk (g : geoid) (r : Route) : option geoid :=
  match r with
  | [] => Some g
  | l :: t => if Pos.eqb (l_start l) g then walk (l_end l) t else None
  end.
Lemma walk_app g a b : walk g (a ++ b) = match walk g a with Some m => walk m b | None => None end.
Proof. revert g. induction a as [|l a IH]; intro g; cbn; [reflexivity|]. destruct (Pos.eqb (l_start l) g); [apply IH|reflexivity]. Qed.
Lemma walk_last r : forall g m d, r <> [] -> walk g r = Some m -> l_end (last r d) = m.
Proof.
  induction r as [|l r IH]; intros g m d N W; [congruence|]. cbn in W. destruct (Pos.eqb (l_start l) g); [|discriminate].
  destruct r as [|l2 r']; [cbn in *; congruence|]. change (last (l :: l2 :: r') d) with (last (l2 :: r') d). apply (IH (l_end l) m d); [discriminate|exact W].
Qed.
Lemma walk_end g r h : walk g r = Some h -> match r with [] => h = g | l0 :: _ => l_start l0 = g /\ l_end (last r l0) = h end.
Proof.
  destruct r as [|l0 r]; [cbn; congruence|]. intro W. split; [|apply (walk_last (l0 :: r) g h l0); [discriminate|exact W]].
  cbn in W. destruct (Pos.eqb_spec (l_start l0) g); [assumption|discriminate].
Qed.

Section W.
Variable env : Env.

Lemma Pieces_walk [t l drv rem t'] : Pieces env t l drv rem t' -> walk (l_start l) (drv ++ rem) = Some (l_end l).
Proof. intros [ |_ E|g l' _ _ _ -> _| ]; cbn; rewrite ?Pos.eqb_refl; congruence. Qed.

(* after the links of pre, which lead from g to m, driven ++ remaining leads from g to m as well *)
Definition WInv g (pre : Route) (a : RT) : Prop :=
  RInv a /\ forall m, walk g pre = Some m -> walk g (rt_exp a ++ rt_rem a) = Some m.

Lemma traverse_step_walk g pre a link a' : WInv g pre a -> traverse_step env (Ok a) link = Ok a' -> WInv g (pre ++ [link]) a'.
Proof.
  intros (I & W) S. destruct (traverse_step_pieces env S) as (drv & rem & P & E & R & _).
  destruct (Pieces_rinv env I P E R) as (I' & A). split; [exact I'|]. intros m Wm.
  rewrite walk_app in Wm. destruct (walk g pre) as [m0|]; [|discriminate]. cbn in Wm.
  destruct (Pos.eqb_spec (l_start link) m0) as [<-|]; [|discriminate].
  rewrite A, walk_app, (W _ eq_refl), (Pieces_walk P). exact Wm.
Qed.

Lemma traverse_fold_walk g route dur tr h : walk g route = Some h ->
  fold_left (traverse_step env) route (Ok (mkRT dur 0 [] [])) = Ok tr -> RInv tr /\ walk g (rt_exp tr ++ rt_rem tr) = Some h.
Proof.
  intros W F. apply (traverse_fold_ind env (WInv g) (traverse_step_walk g) route []) in F.
  - split; [apply F|apply F, W].
  - split; [intros _; reflexivity|]. intros m Wm. exact Wm.
Qed.

(* routetraversal.traverse: the driven part followed by the remaining part is a walk with the ends of the route — for every
   link table, step length and speed *)
Theorem traverse_walk g route dur tr h : walk g route = Some h -> traverse env route dur = Ok tr ->
  rt_exp tr <> [] -> walk g (rt_exp tr ++ rt_rem tr) = Some h.
Proof.
  intros W H Ne. unfold traverse in H. destruct route as [|h0 t]; [inv H; contradiction Ne; reflexivity|].
  destruct (Pos.eqb _ _); [inv H; contradiction Ne; reflexivity|]. exact (proj2 (traverse_fold_walk _ _ _ _ _ W H)).
Qed.

(* While nothing has been driven no time has been used, and every link so far was degenerate. *)
Definition Undriven dur (pre : Route) (a : RT) : Prop :=
  rt_exp a = [] -> rt_time a = dur /\ Forall (fun l => l_start l = l_end l) pre.

Lemma Pieces_undriven [t l drv rem t'] : Pieces env t l drv rem t' -> drv = [] -> t' = t /\ (t = 0 \/ l_start l = l_end l).
Proof. intros [ | | | ] X; try discriminate; auto. Qed.

Lemma traverse_step_undriven dur : dur <> 0 -> forall pre a link a', Undriven dur pre a -> traverse_step env (Ok a) link = Ok a' ->
  Undriven dur (pre ++ [link]) a'.
Proof.
  intros Hd pre a link a' Hn S X. destruct (traverse_step_pieces env S) as (drv & rem & P & E & _).
  rewrite E in X. apply app_eq_nil in X as [X1 X2]. destruct (Hn X1) as [T F]. destruct (Pieces_undriven P X2) as [T' D].
  split; [congruence|]. apply Forall_app. split; [exact F|]. constructor; [|constructor]. destruct D; [congruence|assumption].
Qed.

Lemma traverse_fold_undriven route dur tr : dur <> 0 -> fold_left (traverse_step env) route (Ok (mkRT dur 0 [] [])) = Ok tr ->
  Undriven dur route tr.
Proof.
  intros Hd F. apply (traverse_fold_ind env (Undriven dur) (traverse_step_undriven dur Hd) route []) in F; [exact F|].
  intros _. split; [reflexivity|constructor].
Qed.

(* nothing driven in a step of positive length: the route was empty, a loop, or made of degenerate links only — the vehicle is
   already where the route ends *)
Theorem traverse_nothing g route dur tr h : dur <> 0 -> walk g route = Some h -> traverse env route dur = Ok tr ->
  rt_exp tr = [] -> h = g.
Proof.
  intros Hd W H X. unfold traverse in H. destruct route as [|h0 t]; [cbn in W; congruence|].
  destruct (Pos.eqb_spec (l_start h0) (l_end (last (h0 :: t) h0))) as [E|N].
  - destruct (walk_end _ _ _ W) as [A B]. congruence.
  - destruct (traverse_fold_walk g _ _ _ _ W H) as (R & Wf). destruct (traverse_fold_undriven _ _ _ Hd H X) as [T _].
    rewrite X, R in Wf by congruence. cbn in Wf. congruence.
Qed.

(* progress: with time available, a route whose first link has distinct ends (and which is not a closed loop) is driven at least in
   part — the driven part is not empty *)
Theorem traverse_progress l route dur tr : dur <> 0 -> l_start l <> l_end l -> l_start l <> l_end (last (l :: route) l) ->
  traverse env (l :: route) dur = Ok tr -> rt_exp tr <> [].
Proof.
  intros Hd Nl Nloop H X. unfold traverse in H. destruct (Pos.eqb_spec (l_start l) (l_end (last (l :: route) l))); [contradiction|].
  destruct (traverse_fold_undriven _ _ _ Hd H X) as [_ F]. inv F. contradiction.
Qed.
End W.
