(* Proofs/Index.v — C08: the location / search indexes of simulation_state_ops.py + dict_ops.py agree with the
   entity maps, for an arbitrary parent function (h3_to_parent is an oracle). *)
From Hive.Base Require Import Prelude.
From Hive.Model Require Import Types KernelBase SimOps.
From Hive.Gen Require Import Kernels.
From Hive.Proofs Require Import SimFacts.
From Coq Require Import Sorting.Sorted.

(* sorted lists without repeats: the model of frozenset[str] *)
Definition ssorted (l : list positive) : Prop := StronglySorted Pos.lt l.

Lemma ssorted_NoDup l : ssorted l -> NoDup l.
Proof.
  induction 1 as [|x l Hs IH Hall]; constructor; auto.
  intro I. rewrite Forall_forall in Hall. specialize (Hall x I). lia.
Qed.
Lemma sins_sorted x l : ssorted l -> ssorted (sins x l).
Proof.
  induction 1 as [|y t Hs IH Hall]; cbn.
  - constructor; constructor.
  - destruct (Pos.compare_spec x y) as [E|E|E].
    + constructor; assumption.
    + constructor; [constructor; assumption|]. constructor; [exact E|].
      rewrite Forall_forall in *. intros z Hz. specialize (Hall z Hz). lia.
    + constructor; [exact IH|]. rewrite Forall_forall in *. intros z Hz.
      apply sins_In in Hz. destruct Hz as [->|Hz]; [exact E|auto].
Qed.
Lemma srem_sorted x l : ssorted l -> ssorted (srem x l).
Proof.
  induction 1 as [|y t Hs IH Hall]; cbn.
  - constructor.
  - destruct (Pos.eqb_spec x y); [exact IH|]. constructor; [exact IH|].
    rewrite Forall_forall in *. intros z Hz. apply srem_In in Hz. destruct Hz; auto.
Qed.

(* collection dictionaries (dict_ops.py): a cell that is present is non-empty and sorted *)
Definition coll_wf (m : pmap (list id)) : Prop :=
  forall g l, PM.find g m = Some l -> l <> [] /\ ssorted l.

Lemma coll_get_add m g l g' : coll_get (PM.add g l m) g' = if Pos.eqb g' g then l else coll_get m g'.
Proof. unfold coll_get. fold (find g' (PM.add g l m)). rewrite find_add. destruct (Pos.eqb g' g); reflexivity. Qed.
Lemma coll_get_remove m g g' : coll_get (PM.remove g m) g' = if Pos.eqb g' g then [] else coll_get m g'.
Proof. unfold coll_get. fold (find g' (PM.remove g m)). rewrite find_remove. destruct (Pos.eqb g' g); reflexivity. Qed.
Lemma coll_get_sorted m g : coll_wf m -> ssorted (coll_get m g).
Proof. intro W. unfold coll_get. destruct (PM.find g m) eqn:F; [apply (W _ _ F)|constructor]. Qed.

Lemma coll_wf_add m g l : coll_wf m -> l <> [] -> ssorted l -> coll_wf (PM.add g l m).
Proof.
  intros W N S g' l' F. change (find g' (PM.add g l m) = Some l') in F. rewrite find_add in F.
  destruct (Pos.eqb g' g); [inv F; auto|exact (W _ _ F)].
Qed.
Lemma coll_wf_remove m g : coll_wf m -> coll_wf (PM.remove g m).
Proof.
  intros W g' l F. change (find g' (PM.remove g m) = Some l) in F. rewrite find_remove in F.
  destruct (Pos.eqb g' g); [discriminate|exact (W _ _ F)].
Qed.

Lemma coll_get_add_to_coll m g y g' x :
  In x (coll_get (add_to_coll m g y) g') <-> (g' = g /\ x = y) \/ In x (coll_get m g').
Proof.
  unfold add_to_coll. rewrite coll_get_add. destruct (Pos.eqb_spec g' g) as [->|N]; [rewrite sins_In|]; tauto.
Qed.
Lemma add_to_coll_wf m g y : coll_wf m -> coll_wf (add_to_coll m g y).
Proof.
  intro W. apply coll_wf_add; [exact W| |apply sins_sorted, coll_get_sorted, W].
  destruct (coll_get m g) as [|z t]; cbn [sins]; [|destruct (Pos.compare y z)]; discriminate.
Qed.

(* the cell is dropped when its last member goes, so both branches leave the same contents *)
Lemma coll_get_remove_from_coll m g y g' x :
  In x (coll_get (remove_from_coll m g y) g') <-> In x (coll_get m g') /\ ~ (g' = g /\ x = y).
Proof.
  assert (coll_get (remove_from_coll m g y) g' = if Pos.eqb g' g then srem y (coll_get m g) else coll_get m g') as ->.
  { unfold remove_from_coll. destruct (srem y (coll_get m g)); [apply coll_get_remove|apply coll_get_add]. }
  destruct (Pos.eqb_spec g' g) as [->|N]; [rewrite srem_In|]; tauto.
Qed.
Lemma remove_from_coll_wf m g y : coll_wf m -> coll_wf (remove_from_coll m g y).
Proof.
  intro W. unfold remove_from_coll. destruct (srem y (coll_get m g)) eqn:S; [apply coll_wf_remove, W|].
  apply coll_wf_add; [exact W|discriminate|]. rewrite <- S. apply srem_sorted, coll_get_sorted, W.
Qed.

(* one index (by exact cell or by search cell) against one entity map *)
Section Idx.
  Context {E : Type} (key : E -> geoid).

  Definition idx_ok (ents : pmap E) (idx : pmap (list id)) : Prop :=
    (forall g x, In x (coll_get idx g) <-> exists e, PM.find x ents = Some e /\ key e = g) /\ coll_wf idx.

  (* an index depends on the entity map only through the cell of each id *)
  Lemma idx_ok_cells ents idx :
    idx_ok ents idx <-> (forall g x, In x (coll_get idx g) <-> option_map key (find x ents) = Some g) /\ coll_wf idx.
  Proof.
    assert (C : forall x g, (exists e, PM.find x ents = Some e /\ key e = g) <-> option_map key (find x ents) = Some g).
    { intros x g. unfold find. destruct (PM.find x ents) as [e|]; cbn.
      - split; [intros (e' & [= ->] & <-); reflexivity|intros [= <-]; eauto].
      - split; [intros (e' & [=] & _)|discriminate]. }
    split; intros [I W]; (split; [|exact W]); intros g x; [rewrite <- C|rewrite C]; apply I.
  Qed.

  Lemma idx_ok_ext ents ents' idx :
    (forall x, option_map key (find x ents') = option_map key (find x ents)) -> idx_ok ents idx -> idx_ok ents' idx.
  Proof. intros X [I W]%idx_ok_cells. apply idx_ok_cells. split; [|exact W]. intros g x. rewrite X. apply I. Qed.

  Lemma idx_ok_empty : idx_ok (PM.empty E) (PM.empty (list id)).
  Proof.
    apply idx_ok_cells. split.
    - intros g x. unfold coll_get, find. rewrite !PM.gempty. cbn. split; [intros []|discriminate].
    - intros g l F. rewrite PM.gempty in F. discriminate.
  Qed.

  Lemma idx_ok_add ents idx k e :
    idx_ok ents idx -> find k ents = None -> idx_ok (PM.add k e ents) (add_to_coll idx (key e) k).
  Proof.
    intros [I W]%idx_ok_cells F. apply idx_ok_cells. split; [|apply add_to_coll_wf, W].
    intros g x. rewrite coll_get_add_to_coll, I, find_add.
    destruct (Pos.eqb_spec x k) as [->|N]; [|tauto]. rewrite F. cbn. split.
    - intros [[-> _]|D]; [reflexivity|discriminate].
    - intros [= <-]. left. split; reflexivity.
  Qed.

  Lemma idx_ok_remove ents idx k e :
    idx_ok ents idx -> find k ents = Some e -> idx_ok (PM.remove k ents) (remove_from_coll idx (key e) k).
  Proof.
    intros [I W]%idx_ok_cells F. apply idx_ok_cells. split; [|apply remove_from_coll_wf, W].
    intros g x. rewrite coll_get_remove_from_coll, I, find_remove. destruct (Pos.eqb_spec x k) as [->|N].
    - rewrite F. cbn. split; [|discriminate]. intros [A B]. destruct B. split; congruence.
    - tauto.
  Qed.

  (* modify with the index left alone: the key did not change *)
  Lemma idx_ok_same_cell ents idx k old upd :
    idx_ok ents idx -> find k ents = Some old -> key old = key upd -> idx_ok (PM.add k upd ents) idx.
  Proof.
    intros I F K. apply (idx_ok_ext ents); [|exact I]. intro x. rewrite find_add.
    destruct (Pos.eqb_spec x k) as [->|_]; [rewrite F; cbn; congruence|reflexivity].
  Qed.

  (* modify with a move: remove from the old cell, add to the new one *)
  Lemma idx_ok_move ents idx k old upd :
    idx_ok ents idx -> find k ents = Some old ->
    idx_ok (PM.add k upd ents) (add_to_coll (remove_from_coll idx (key old) k) (key upd) k).
  Proof.
    intros I F. apply (idx_ok_ext (PM.add k upd (PM.remove k ents))).
    - intro x. rewrite !find_add, find_remove. destruct (Pos.eqb x k); reflexivity.
    - apply idx_ok_add; [exact (idx_ok_remove _ _ _ _ I F)|]. rewrite find_remove, Pos.eqb_refl. reflexivity.
  Qed.
End Idx.

Definition keys_ok {E} (eid : E -> id) (m : pmap E) : Prop := forall k e, PM.find k m = Some e -> eid e = k.

Lemma keys_ok_empty {E} (eid : E -> id) : keys_ok eid (PM.empty E).
Proof. intros k e F. rewrite PM.gempty in F. discriminate. Qed.
Lemma keys_ok_add {E} (eid : E -> id) m e : keys_ok eid m -> keys_ok eid (PM.add (eid e) e m).
Proof. exact (keyed_add eid m e). Qed.
Lemma keys_ok_remove {E} (eid : E -> id) m k : keys_ok eid m -> keys_ok eid (PM.remove k m).
Proof.
  intros K k' e F. change (find k' (PM.remove k m) = Some e) in F. rewrite find_remove in F.
  destruct (Pos.eqb k' k); [discriminate|exact (K _ _ F)].
Qed.

(* one entity kind: its map and its two indexes under add / update_entity_dictionaries / remove *)
Section Kind.
  Context {E : Type} (geo : E -> geoid) (eid : E -> id) (parent : geoid -> geoid).
  Definition kind_ok (ents : pmap E) (locs srch : pmap (list id)) : Prop :=
    idx_ok geo ents locs /\ idx_ok (fun e => parent (geo e)) ents srch.

  Definition kind_inv (ents : pmap E) (locs srch : pmap (list id)) : Prop :=
    kind_ok ents locs srch /\ keys_ok eid ents.

  Lemma kind_inv_empty : kind_inv (PM.empty E) (PM.empty (list id)) (PM.empty (list id)).
  Proof. split; [split; apply idx_ok_empty|apply keys_ok_empty]. Qed.

  Lemma kind_inv_add_new ents locs srch e :
    kind_inv ents locs srch -> find (eid e) ents = None ->
    kind_inv (PM.add (eid e) e ents) (add_to_coll locs (geo e) (eid e)) (add_to_coll srch (parent (geo e)) (eid e)).
  Proof.
    intros [[L S] K] F. split; [split|apply keys_ok_add, K].
    - exact (idx_ok_add _ _ _ _ e L F).
    - exact (idx_ok_add _ _ _ _ e S F).
  Qed.

  Lemma kind_inv_remove ents locs srch k e :
    kind_inv ents locs srch -> find k ents = Some e ->
    kind_inv (PM.remove k ents) (remove_from_coll locs (geo e) k) (remove_from_coll srch (parent (geo e)) k).
  Proof.
    intros [[L S] K] F. split; [split|apply keys_ok_remove, K].
    - exact (idx_ok_remove _ _ _ _ _ L F).
    - exact (idx_ok_remove _ _ _ _ _ S F).
  Qed.

  Lemma kind_inv_same_cell ents locs srch old upd :
    kind_inv ents locs srch -> find (eid upd) ents = Some old -> geo old = geo upd ->
    kind_inv (PM.add (eid upd) upd ents) locs srch.
  Proof.
    intros [[L S] K] F G. split; [split|apply keys_ok_add, K].
    - exact (idx_ok_same_cell _ _ _ _ _ _ L F G).
    - exact (idx_ok_same_cell _ _ _ _ _ _ S F (f_equal parent G)).
  Qed.

  Lemma kind_inv_update ents locs srch old upd :
    kind_inv ents locs srch -> find (eid upd) ents = Some old ->
    let '(ents', locs', srch') := update_entity_dicts geo eid parent old upd ents locs srch in kind_inv ents' locs' srch'.
  Proof.
    intros KI F. unfold update_entity_dicts. destruct (Pos.eqb_spec (geo old) (geo upd)) as [G|_].
    - exact (kind_inv_same_cell _ _ _ _ _ KI F G).
    - destruct KI as [[L S] K]. rewrite (K _ _ F).
      pose proof (idx_ok_move geo _ _ _ _ upd L F) as L'.
      destruct (Pos.eqb_spec (parent (geo old)) (parent (geo upd))) as [P|_]; (split; [split; [exact L'|]|apply keys_ok_add, K]).
      + exact (idx_ok_same_cell _ _ _ _ _ _ S F P).
      + exact (idx_ok_move _ _ _ _ _ _ S F).
  Qed.
End Kind.

Lemma Ok_inj {A} (x y : A) : Ok x = Ok y -> x = y.
Proof. intros [= H]. exact H. Qed.

Section Sim.
  Variable env : Env.
  Let parent := e_parent env.

  Definition Inv_idx (s : Sim) : Prop :=
    kind_ok v_geoid parent (vehicles s) (v_loc s) (v_search s) /\
    kind_ok r_geoid parent (requests s) (r_loc s) (r_search s) /\
    kind_ok s_geoid parent (stations s) (s_loc s) (s_search s) /\
    kind_ok b_geoid parent (bases s) (b_loc s) (b_search s) /\
    keys_ok v_id (vehicles s) /\ keys_ok r_id (requests s) /\ keys_ok s_id (stations s) /\ keys_ok b_id (bases s).

  Lemma Inv_idx_kinds s :
    Inv_idx s <-> kind_inv v_geoid v_id parent (vehicles s) (v_loc s) (v_search s) /\
                  kind_inv r_geoid r_id parent (requests s) (r_loc s) (r_search s) /\
                  kind_inv s_geoid s_id parent (stations s) (s_loc s) (s_search s) /\
                  kind_inv b_geoid b_id parent (bases s) (b_loc s) (b_search s).
  Proof. unfold Inv_idx, kind_inv. tauto. Qed.

  Lemma modify_vehicle_idx s v s' : Inv_idx s -> modify_vehicle env s v = Ok s' -> Inv_idx s'.
  Proof.
    intros (V & R & S & B)%(proj1 (Inv_idx_kinds s)) H. unfold modify_vehicle in H.
    do 2 dmatch H. pose proof (kind_inv_update _ _ (e_parent env) _ _ _ _ v V E) as U.
    destruct (update_entity_dicts _ _ _ _ _ _ _ _) as [[ents locs] srch]. rewrite <- (Ok_inj _ _ H).
    apply Inv_idx_kinds. exact (conj U (conj R (conj S B))).
  Qed.
  Lemma modify_request_idx s r s' : Inv_idx s -> modify_request env s r = Ok s' -> Inv_idx s'.
  Proof.
    intros (V & R & S & B)%(proj1 (Inv_idx_kinds s)) H. unfold modify_request in H.
    do 3 dmatch H. pose proof (kind_inv_update _ _ (e_parent env) _ _ _ _ r R E) as U.
    destruct (update_entity_dicts _ _ _ _ _ _ _ _) as [[ents locs] srch]. rewrite <- (Ok_inj _ _ H).
    apply Inv_idx_kinds. exact (conj V (conj U (conj S B))).
  Qed.
  Lemma modify_station_idx s x s' : Inv_idx s -> modify_station env s x = Ok s' -> Inv_idx s'.
  Proof.
    intros (V & R & S & B)%(proj1 (Inv_idx_kinds s)) H. unfold modify_station in H.
    destruct (find (s_id x) (stations s)) as [old|] eqn:F; [|discriminate].
    destruct (Pos.eqb_spec (s_geoid old) (s_geoid x)) as [G|_]; [|discriminate]. cbn [negb] in H.
    destruct (negb _); [discriminate|]. rewrite <- (Ok_inj _ _ H).
    apply Inv_idx_kinds. exact (conj V (conj R (conj (kind_inv_same_cell _ _ _ _ _ _ _ _ S F G) B))).
  Qed.
  Lemma modify_base_idx s x s' : Inv_idx s -> modify_base env s x = Ok s' -> Inv_idx s'.
  Proof.
    intros (V & R & S & B)%(proj1 (Inv_idx_kinds s)) H. unfold modify_base in H.
    destruct (find (b_id x) (bases s)) as [old|] eqn:F; [|discriminate].
    destruct (Pos.eqb_spec (b_geoid old) (b_geoid x)) as [G|_]; [|discriminate]. cbn [negb] in H.
    destruct (negb _); [discriminate|]. rewrite <- (Ok_inj _ _ H).
    apply Inv_idx_kinds. exact (conj V (conj R (conj S (kind_inv_same_cell _ _ _ _ _ _ _ _ B F G)))).
  Qed.

  (* C08_static: a station / base never changes location through modify_* *)
  Lemma modify_station_static s x old : PM.find (s_id x) (stations s) = Some old -> s_geoid old <> s_geoid x ->
    modify_station env s x = Err.
  Proof. intros F G. unfold modify_station, find. rewrite F. destruct (Pos.eqb_spec (s_geoid old) (s_geoid x)); [contradiction|reflexivity]. Qed.
  Lemma modify_base_static s x old : PM.find (b_id x) (bases s) = Some old -> b_geoid old <> b_geoid x ->
    modify_base env s x = Err.
  Proof. intros F G. unfold modify_base, find. rewrite F. destruct (Pos.eqb_spec (b_geoid old) (b_geoid x)); [contradiction|reflexivity]. Qed.

  Lemma remove_vehicle_idx s k s' : Inv_idx s -> remove_vehicle env s k = Ok s' -> Inv_idx s'.
  Proof.
    intros (V & R & S & B)%(proj1 (Inv_idx_kinds s)) H. unfold remove_vehicle in H. dmatch H. rewrite <- (Ok_inj _ _ H).
    apply Inv_idx_kinds. exact (conj (kind_inv_remove _ _ _ _ _ _ _ _ V E) (conj R (conj S B))).
  Qed.
  Lemma remove_request_idx s k s' : Inv_idx s -> remove_request env s k = Ok s' -> Inv_idx s'.
  Proof.
    intros (V & R & S & B)%(proj1 (Inv_idx_kinds s)) H. unfold remove_request in H. dmatch H. rewrite <- (Ok_inj _ _ H).
    apply Inv_idx_kinds. exact (conj V (conj (kind_inv_remove _ _ _ _ _ _ _ _ R E) (conj S B))).
  Qed.
  Lemma remove_station_idx s k s' : Inv_idx s -> remove_station env s k = Ok s' -> Inv_idx s'.
  Proof.
    intros (V & R & S & B)%(proj1 (Inv_idx_kinds s)) H. unfold remove_station in H. dmatch H. rewrite <- (Ok_inj _ _ H).
    apply Inv_idx_kinds. exact (conj V (conj R (conj (kind_inv_remove _ _ _ _ _ _ _ _ S E) B))).
  Qed.
  Lemma remove_base_idx s k s' : Inv_idx s -> remove_base env s k = Ok s' -> Inv_idx s'.
  Proof.
    intros (V & R & S & B)%(proj1 (Inv_idx_kinds s)) H. unfold remove_base in H. dmatch H. rewrite <- (Ok_inj _ _ H).
    apply Inv_idx_kinds. exact (conj V (conj R (conj S (kind_inv_remove _ _ _ _ _ _ _ _ B E)))).
  Qed.
  Lemma pop_vehicle_idx s k s' v : Inv_idx s -> pop_vehicle env s k = Ok (s', v) -> Inv_idx s'.
  Proof.
    intros I H. unfold pop_vehicle in H. destruct (find k (vehicles s)); [|discriminate].
    destruct (remove_vehicle env s k) eqn:Rm; inv H. exact (remove_vehicle_idx _ _ _ I Rm).
  Qed.

  (* add_* : a new id is indexed; an id that is already present goes through modify_* *)
  Lemma add_vehicle_idx s v s' : Inv_idx s -> add_vehicle env s v = Ok s' -> Inv_idx s'.
  Proof.
    intros I H. unfold add_vehicle in H. destruct (find (v_id v) (vehicles s)) eqn:F; [exact (modify_vehicle_idx _ _ _ I H)|].
    destruct (proj1 (Inv_idx_kinds s) I) as (V & R & S & B). unfold add_vehicle_new in H. dmatch H. rewrite <- (Ok_inj _ _ H).
    apply Inv_idx_kinds. exact (conj (kind_inv_add_new _ _ _ _ _ _ _ V F) (conj R (conj S B))).
  Qed.
  Lemma add_request_idx s v s' : Inv_idx s -> add_request env s v = Ok s' -> Inv_idx s'.
  Proof.
    intros I H. unfold add_request in H. destruct (find (r_id v) (requests s)) eqn:F; [exact (modify_request_idx _ _ _ I H)|].
    destruct (proj1 (Inv_idx_kinds s) I) as (V & R & S & B). unfold add_request_new in H. dmatch H. rewrite <- (Ok_inj _ _ H).
    apply Inv_idx_kinds. exact (conj V (conj (kind_inv_add_new _ _ _ _ _ _ _ R F) (conj S B))).
  Qed.
  Lemma add_station_idx s v s' : Inv_idx s -> add_station env s v = Ok s' -> Inv_idx s'.
  Proof.
    intros I H. unfold add_station in H. destruct (find (s_id v) (stations s)) eqn:F; [exact (modify_station_idx _ _ _ I H)|].
    destruct (proj1 (Inv_idx_kinds s) I) as (V & R & S & B). unfold add_station_new in H. dmatch H. rewrite <- (Ok_inj _ _ H).
    apply Inv_idx_kinds. exact (conj V (conj R (conj (kind_inv_add_new _ _ _ _ _ _ _ S F) B))).
  Qed.
  Lemma add_base_idx s v s' : Inv_idx s -> add_base env s v = Ok s' -> Inv_idx s'.
  Proof.
    intros I H. unfold add_base in H. destruct (find (b_id v) (bases s)) eqn:F; [exact (modify_base_idx _ _ _ I H)|].
    destruct (proj1 (Inv_idx_kinds s) I) as (V & R & S & B). unfold add_base_new in H. dmatch H. rewrite <- (Ok_inj _ _ H).
    apply Inv_idx_kinds. exact (conj V (conj R (conj S (kind_inv_add_new _ _ _ _ _ _ _ B F)))).
  Qed.

  Lemma empty_idx t d : Inv_idx (mkSim (PM.empty _) (PM.empty _) (PM.empty _) (PM.empty _) (PM.empty _) (PM.empty _) (PM.empty _) (PM.empty _)
                                      (PM.empty _) (PM.empty _) (PM.empty _) (PM.empty _) (PM.empty _) t d []).
  Proof. apply Inv_idx_kinds. split; [|split; [|split]]; apply kind_inv_empty. Qed.
End Sim.
