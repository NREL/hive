(* Proofs/Fleet.v — C05 fleet totals over whole histories.  The per-entity books of AcctInv.v regroup into fleet totals because every
   book event names a vehicle (and, for a charge, a station) that exists (`named`, carried by `acct`) and no entity ever appears
   or disappears (`dom_kept` + the forward direction of acct): summed over the fleet, the energy vehicles gained equals the sum of
   the charge events' energies, which — split by the plug's energy type — equals what the stations report as dispensed; what
   vehicles paid is what stations received; fleet income is fares minus payments. *)
From Hive.Base Require Import Prelude.
From Hive.Model Require Import Types SimOps Step.
From Hive.Proofs Require Import VehFrame Macro CountInv Sorted AcctInv.
Local Open Scope Q_scope.

Fixpoint sumQ (l : list Q) : Q := match l with [] => 0 | x :: t => x + sumQ t end.
Definition over (ks : list id) (g : id -> Q) : Q := sumQ (map g ks).
Fixpoint evsum (h : Event -> Q) (l : list Event) : Q := match l with [] => 0 | e :: t => h e + evsum h t end.

Lemma over_plus ks g h : over ks (fun k => g k + h k) == over ks g + over ks h.
Proof. unfold over. induction ks as [|k ks IH]; cbn; [lra|]. rewrite IH. lra. Qed.
Lemma over_minus ks g h : over ks (fun k => g k - h k) == over ks g - over ks h.
Proof. unfold over. induction ks as [|k ks IH]; cbn; [lra|]. rewrite IH. lra. Qed.
Lemma over_ext ks g h : (forall k, In k ks -> g k == h k) -> over ks g == over ks h.
Proof. unfold over. induction ks as [|k ks IH]; intro H; cbn; [lra|]. rewrite (H k) by (left; reflexivity). rewrite IH by (intros; apply H; right; assumption). lra. Qed.
Lemma over_zero ks g : (forall k, In k ks -> g k == 0) -> over ks g == 0.
Proof. intro H. rewrite (over_ext ks g (fun _ => 0) H). clear H. unfold over. induction ks as [|k ks IH]; cbn; [lra|]. rewrite IH. lra. Qed.
(* an amount booked under one id of a duplicate-free id list is counted exactly once *)
Lemma over_one ks v x : NoDup ks -> In v ks -> over ks (fun k => if Pos.eqb v k then x else 0) == x.
Proof.
  induction 1 as [|k ks Nk _ IH]; intro I; [destruct I|]. change (over (k :: ks) ?g) with (g k + over ks g). cbv beta.
  destruct (Pos.eqb_spec v k) as [->|D].
  - rewrite over_zero; [lra|]. intros j Ij. destruct (Pos.eqb_spec k j) as [->|_]; [contradiction|reflexivity].
  - destruct I as [E|I]; [congruence|]. rewrite (IH I). lra.
Qed.

Lemma evsum_app h a b : evsum h (a ++ b) == evsum h a + evsum h b.
Proof. induction a as [|e a IH]; cbn [app evsum]; [lra|]. rewrite IH. lra. Qed.
Lemma exchange (f : Event -> id -> Q) (h : Event -> Q) ks l : Forall (fun e => over ks (f e) == h e) l -> over ks (total f l) == evsum h l.
Proof.
  induction 1 as [|e l H _ IH]; cbn [total evsum].
  - apply over_zero. intros; lra.
  - rewrite over_plus, H, IH. reflexivity.
Qed.

(* f books what h says of an event under the one entity that who says the event names, and an event that names nobody under
   nobody (so h has to be silent on it); summed over entities that include every one named, the totals of f are the event sum of h *)
Definition regroups (f : Event -> id -> Q) (who : Event -> option id) (h : Event -> Q) : Prop :=
  forall e, match who e with Some v => forall k, f e k = if Pos.eqb v k then h e else 0 | None => h e = 0 /\ forall k, f e k = 0 end.
Lemma over_total ks f who h evs : regroups f who h -> NoDup ks -> Forall (fun e => forall v, who e = Some v -> In v ks) evs ->
  over ks (total f evs) == evsum h evs.
Proof.
  intros R N D. apply exchange. eapply Forall_impl; [|exact D]. intros e I. specialize (R e). destruct (who e) as [v|] eqn:W.
  - rewrite <- (over_one ks v (h e) N (I v W)). apply over_ext. intros k _. rewrite R. reflexivity.
  - destruct R as [-> R]. apply over_zero. intros k _. rewrite R. reflexivity.
Qed.

(* what an event says, whoever it names *)
Definition ev_energy (e : Event) : Q := match e with EvCharge _ _ _ _ en _ _ => en | _ => 0 end.
Definition ev_energy_t (et : EnergyType) (e : Event) : Q := match e with EvCharge _ _ _ t en _ _ => if etype_eqb t et then en else 0 | _ => 0 end.
Definition ev_price (e : Event) : Q := match e with EvCharge _ _ _ _ _ p _ => p | _ => 0 end.
Definition ev_value (e : Event) : Q := match e with EvPickup _ _ _ _ val => val | _ => 0 end.
Definition ev_dist (e : Event) : Q := match e with EvMove _ d _ => d | _ => 0 end.
Lemma energy_by_type l : evsum ev_energy l == evsum (ev_energy_t Electric) l + evsum (ev_energy_t Gasoline) l.
Proof. induction l as [|e l IH]; cbn [evsum]; [lra|]. rewrite IH. destruct e; cbn; try lra. destruct et; cbn; lra. Qed.

Definition ev_veh (e : Event) : option id := match e with EvMove v _ _ | EvCharge v _ _ _ _ _ _ | EvPickup _ v _ _ _ => Some v | _ => None end.
Definition ev_stn (e : Event) : option id := match e with EvCharge _ s _ _ _ _ _ => Some s | _ => None end.
Lemma books_regroup :
  regroups ev_moved ev_veh ev_dist /\ regroups ev_charged ev_veh ev_energy /\ regroups ev_paid ev_veh ev_price /\
  regroups ev_fare ev_veh ev_value /\ regroups ev_recv ev_stn ev_price /\ forall et, regroups (ev_disp et) ev_stn (ev_energy_t et).
Proof.
  repeat apply conj; [| | | | |intro et]; intro e; destruct e; try (split; intros; reflexivity); intro k; cbn; try reflexivity.
  all: destruct (Pos.eqb _ k); reflexivity.
Qed.

Lemma in_keys {A} (m : pmap A) k : In k (sorted_keys m) <-> find k m <> None.
Proof.
  rewrite sorted_keys_In. unfold find. split.
  - intros [v M]. apply PM.find_1 in M. congruence.
  - intro N. destruct (PM.find k m) as [v|] eqn:F; [|congruence]. exists v. apply PM.find_2. exact F.
Qed.
Lemma named_fleet s evs : Forall (named s) evs ->
  Forall (fun e => forall v, ev_veh e = Some v -> In v (sorted_keys (vehicles s))) evs /\
  Forall (fun e => forall x, ev_stn e = Some x -> In x (sorted_keys (stations s))) evs.
Proof. intro N. split; (eapply Forall_impl; [|exact N]); intros e Ne k E; apply in_keys; destruct e; try discriminate E; injection E as <-; apply Ne. Qed.

Definition vget (f : Vehicle -> Q) (s : Sim) (k : id) : Q := match find k (vehicles s) with Some v => f v | None => 0 end.
Definition sget (f : Station -> Q) (s : Sim) (k : id) : Q := match find k (stations s) with Some v => f v | None => 0 end.
(* vget f s is mget f (vehicles s), sget f s is mget f (stations s) *)
Definition mget {A} (f : A -> Q) (m : pmap A) (k : id) : Q := match find k m with Some v => f v | None => 0 end.

(* a map m' that has an entry, related by R to the old one, exactly where m has one *)
Section Kept.
Context {A : Type} (m m' : pmap A) (R : id -> A -> A -> Prop).
Hypothesis none_kept : forall k, find k m = None -> find k m' = None.
Hypothesis some_kept : forall k v, find k m = Some v -> exists v', find k m' = Some v' /\ R k v v'.
Lemma keys_kept k : In k (sorted_keys m') <-> In k (sorted_keys m).
Proof.
  rewrite !in_keys. split; intro N.
  - intro Z. apply N, none_kept, Z.
  - destruct (find k m) as [v|] eqn:F; [|congruence]. destruct (some_kept k v F) as (v' & F' & _). congruence.
Qed.
(* if R says that f grew by d k, the sum of f over the keys grew by the sum of d *)
Lemma over_books (f : A -> Q) d : (forall k v v', R k v v' -> f v' == f v + d k) ->
  over (sorted_keys m) (mget f m') == over (sorted_keys m) (mget f m) + over (sorted_keys m) d.
Proof.
  intro E. rewrite <- over_plus. apply over_ext. intros k I. apply in_keys in I. unfold mget.
  destruct (find k m) as [v|] eqn:F; [|congruence]. destruct (some_kept k v F) as (v' & -> & r). exact (E k v v' r).
Qed.
(* ... and if d is a per-entity total that regroups h over events naming only entities of m, by the event sum of h *)
Lemma fleet_total g who h evs (f : A -> Q) : regroups g who h -> Forall (fun e => forall v, who e = Some v -> In v (sorted_keys m)) evs ->
  (forall k v v', R k v v' -> f v' == f v + total g evs k) ->
  over (sorted_keys m) (mget f m') == over (sorted_keys m) (mget f m) + evsum h evs.
Proof. intros G D E. rewrite <- (over_total _ g who h evs G (sorted_elements_keys_NoDup m) D). apply over_books, E. Qed.
End Kept.
Arguments keys_kept {A m m' R}.
Arguments over_books {A m m' R}.
Arguments fleet_total {A m m' R} some_kept {g who h evs}.

Section F.
Variable env : Env.

Theorem fleet_books ops s0 : vkeys s0 -> skeys (stations s0) -> Forall op_ok ops -> log s0 = [] ->
  let s := fold_left (step_op env) ops s0 in
  let vs := sorted_keys (vehicles s0) in let ss := sorted_keys (stations s0) in
  (* the fleet is the same fleet *)
  (forall k, In k (sorted_keys (vehicles s)) <-> In k vs) /\ (forall k, In k (sorted_keys (stations s)) <-> In k ss) /\
  (* energy: vehicles' gain = charge events = stations' dispensed, per plug energy type *)
  over vs (vget v_gained s) == over vs (vget v_gained s0) + evsum ev_energy (log s) /\
  over ss (sget s_disp_e s) == over ss (sget s_disp_e s0) + evsum (ev_energy_t Electric) (log s) /\
  over ss (sget s_disp_g s) == over ss (sget s_disp_g s0) + evsum (ev_energy_t Gasoline) (log s) /\
  (* money *)
  over vs (vget v_balance s) == over vs (vget v_balance s0) + evsum ev_value (log s) - evsum ev_price (log s) /\
  over ss (sget s_balance s) == over ss (sget s_balance s0) + evsum ev_price (log s) /\
  (* distance *)
  over vs (vget v_odo s) == over vs (vget v_odo s0) + evsum ev_dist (log s).
Proof.
  intros K SK Hok L0 s vs ss. assert (A : acct s0 s) by (apply acct_over_histories; assumption).
  destruct (A K SK) as (_ & _ & evs & L & V & S & (Dv & Ds) & Nm). rewrite L0, app_nil_r in L. rewrite L.
  split; [exact (keys_kept Dv V)|]. split; [exact (keys_kept Ds S)|].
  destruct (named_fleet s0 evs Nm) as [IV IS]. destruct books_regroup as (RM & RC & RP & RF & RR & RD).
  repeat apply conj.
  - apply (fleet_total V v_gained RC IV). intros k v v' B. apply B.
  - apply (fleet_total S s_disp_e (RD Electric) IS). intros k x x' B. apply B.
  - apply (fleet_total S s_disp_g (RD Gasoline) IS). intros k x x' B. apply B.
  - (* the one book with two event sums *)
    assert (NV : NoDup vs) by apply sorted_elements_keys_NoDup.
    transitivity (over vs (vget v_balance s0) + over vs (fun k => total ev_fare evs k - total ev_paid evs k)).
    + apply (over_books V v_balance). intros k v v' (_ & _ & B). lra.
    + pose proof (over_minus vs (total ev_fare evs) (total ev_paid evs)). pose proof (over_total vs _ _ _ evs RF NV IV).
      pose proof (over_total vs _ _ _ evs RP NV IV). lra.
  - apply (fleet_total S s_balance RR IS). intros k x x' B. apply B.
  - apply (fleet_total V v_odo RM IV). intros k v v' B. apply B.
Qed.
End F.
