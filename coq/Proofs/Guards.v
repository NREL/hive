(* Proofs/Guards.v — C07 / C10: what every successful enter() has checked.  Whatever instruction (from whatever
   controller) or default transition leads to vs_enter, acceptance implies the location and membership facts below. *)
From Hive.Base Require Import Prelude.
From Hive.Model Require Import Types KernelBase SimOps States Step.
From Hive.Gen Require Import Kernels.
From Hive.Proofs Require Import SimFacts Atomic Trip.

Section S.
Variable env : Env.

Definition grants (m : Membership) (v : Vehicle) : Prop := grant_access_to_membership m (v_mem v) = true.

(* the facts an accepted activity st was checked against, in the state s in which it was entered *)
Definition guard (s : Sim) (v : Vehicle) (st : VState) : Prop :=
  match st with
  | ChargingStation sid _ | ChargeQueueing sid _ _ =>
      exists x, find sid (stations s) = Some x /\ v_geoid v = s_geoid x /\ grants (s_mem x) v
  | ReserveBase bid =>
      exists b, find bid (bases s) = Some b /\ v_geoid v = b_geoid b /\ grants (b_mem b) v
  | ChargingBase bid _ =>
      exists b sid x, find bid (bases s) = Some b /\ b_station b = Some sid /\ find sid (stations s) = Some x /\
                      v_geoid v = b_geoid b /\ grants (b_mem b) v /\ grants (s_mem x) v
  | DispatchStation sid _ r =>
      exists x, find sid (stations s) = Some x /\ route_corr r (v_pos v) (Some (s_pos x)) = true /\ grants (s_mem x) v
  | DispatchBase bid r =>
      exists b, find bid (bases s) = Some b /\ route_corr r (v_pos v) (Some (b_pos b)) = true /\ grants (b_mem b) v
  | DispatchTrip rid r =>
      exists q, find rid (requests s) = Some q /\ route_corr r (v_pos v) (Some (r_pos q)) = true /\ grants (r_mem q) v
  | ServicingTrip q _ r =>
      route_corr r (v_pos v) None = true /\ grants (r_mem q) v /\ is_dispatch_trip (v_state v) = true /\
      exists q', find (r_id q) (requests s) = Some q' /\ route_corr r (r_pos q') (Some (r_dest q')) = true
  | Repositioning r => route_corr r (v_pos v) None = true
  | Idle _ | OutOfService => True
  end.

Definition entered (s s' : Sim) (v : Vehicle) (st : VState) : Prop :=
  vehicles s' = PM.add (v_id v) (v <| v_state := st |>) (vehicles s).

Ltac facts :=
  repeat match goal with
         | H : negb _ = false |- _ => apply negb_false_iff in H
         | H : negb _ = true |- _ => apply negb_true_iff in H
         | H : Pos.eqb _ _ = true |- _ => apply Pos.eqb_eq in H
         | H : (_ && _)%bool = true |- _ => apply andb_true_iff in H; destruct H
         end.

Ltac specs :=
  repeat match goal with
         | H : modify_station _ _ _ = Ok _ |- _ => apply modify_station_spec in H; destruct H as (_ & _ & ? & _)
         | H : modify_base _ _ _ = Ok _ |- _ => apply modify_base_spec in H; destruct H as (_ & _ & ? & _)
         | H : modify_request _ _ _ = Ok _ |- _ => apply modify_request_spec in H; destruct H as (_ & _ & ? & _)
         end.

Lemma finish s0 s vid st s' v :
  find vid (vehicles s0) = Some v -> vehicles s = vehicles s0 ->
  apply_new_vehicle_state env s vid st = Ok s' -> entered s0 s' v st.
Proof.
  intros F V H. apply apply_new_vehicle_state_spec in H. destruct H as (v' & F' & Hv & _).
  rewrite V in F'. rewrite F in F'. inv F'. unfold entered. rewrite Hv, V. reflexivity.
Qed.

Lemma enter_charging_station_guard vid sid cid s s' : enter_charging_station env vid sid cid s = Ok s' ->
  exists v, find vid (vehicles s) = Some v /\ guard s v (ChargingStation sid cid) /\ entered s s' v (ChargingStation sid cid).
Proof.
  unfold enter_charging_station, rbind. intro H. repeat dmatch H. facts.
  exists v. split; [reflexivity|]. split.
  - cbn. exists s0. auto.
  - specs. eapply finish; [eassumption| |eassumption]; congruence.
Qed.
Lemma enter_charge_queueing_guard vid sid cid t s s' : enter_charge_queueing env vid sid cid t s = Ok s' ->
  exists v, find vid (vehicles s) = Some v /\ guard s v (ChargeQueueing sid cid t) /\ entered s s' v (ChargeQueueing sid cid t).
Proof.
  unfold enter_charge_queueing, rbind. intro H. repeat dmatch H. facts.
  exists v. split; [reflexivity|]. split.
  - cbn. exists s0. auto.
  - specs. eapply finish; [eassumption| |eassumption]; congruence.
Qed.
Lemma enter_reserve_base_guard vid bid s s' : enter_reserve_base env vid bid s = Ok s' ->
  exists v, find vid (vehicles s) = Some v /\ guard s v (ReserveBase bid) /\ entered s s' v (ReserveBase bid).
Proof.
  unfold enter_reserve_base, rbind. intro H. repeat dmatch H. facts.
  exists v. split; [reflexivity|]. split.
  - cbn. exists b. auto.
  - specs. eapply finish; [eassumption| |eassumption]; congruence.
Qed.
Lemma enter_charging_base_guard vid bid cid s s' : enter_charging_base env vid bid cid s = Ok s' ->
  exists v, find vid (vehicles s) = Some v /\ guard s v (ChargingBase bid cid) /\ entered s s' v (ChargingBase bid cid).
Proof.
  unfold enter_charging_base, rbind. intro H. repeat dmatch H. facts.
  exists v. split; [reflexivity|]. split.
  - cbn. exists b, i, s0. auto 10.
  - specs. eapply finish; [eassumption| |eassumption]; congruence.
Qed.
Lemma enter_dispatch_station_guard vid sid cid r s s' : enter_dispatch_station env vid sid cid r s = Ok s' ->
  exists v st', find vid (vehicles s) = Some v /\ guard s v st' /\ entered s s' v st' /\
                (st' = DispatchStation sid cid r \/ st' = ChargingStation sid cid).
Proof.
  unfold enter_dispatch_station. intro H. repeat dmatch H.
  - apply enter_charging_station_guard in H. destruct H as (v' & F & G & En). rewrite E in F. inv F.
    exists v', (ChargingStation sid cid). auto.
  - facts. exists v, (DispatchStation sid cid r). split; [reflexivity|]. split; [cbn; exists s0; auto|]. split; [|auto].
    eapply finish; eauto.
Qed.
Lemma enter_dispatch_base_guard vid bid r s s' : enter_dispatch_base env vid bid r s = Ok s' ->
  exists v, find vid (vehicles s) = Some v /\ guard s v (DispatchBase bid r) /\ entered s s' v (DispatchBase bid r).
Proof.
  unfold enter_dispatch_base. intro H. repeat dmatch H. facts.
  exists v. split; [reflexivity|]. split; [cbn; exists b; auto|]. eapply finish; eauto.
Qed.
Lemma enter_dispatch_trip_guard vid rid r s s' : enter_dispatch_trip env vid rid r s = Ok s' ->
  exists v, find vid (vehicles s) = Some v /\ guard s v (DispatchTrip rid r) /\ entered s s' v (DispatchTrip rid r).
Proof.
  unfold enter_dispatch_trip. intro H. repeat dmatch H. facts.
  exists v. split; [reflexivity|]. split; [cbn; exists r0; auto|].
  specs. eapply finish; [eassumption| |eassumption]; congruence.
Qed.
Lemma enter_repositioning_guard vid r s s' : enter_repositioning env vid r s = Ok s' ->
  exists v, find vid (vehicles s) = Some v /\ guard s v (Repositioning r) /\ entered s s' v (Repositioning r).
Proof.
  unfold enter_repositioning. intro H. repeat dmatch H. facts.
  exists v. split; [reflexivity|]. split; [cbn; auto|]. eapply finish; eauto.
Qed.
(* ServicingTrip: the guard facts, and the two calls that follow them (the vehicle record also receives the fare: see pick_up_trip) *)
Lemma enter_servicing_trip_guard vid q d r s s' : enter_servicing_trip env vid q d r s = Ok s' ->
  exists v a, find vid (vehicles s) = Some v /\ guard s v (ServicingTrip q d r) /\
              pick_up_trip env s vid (r_id q) = Ok a /\ apply_new_vehicle_state env a vid (ServicingTrip q d r) = Ok s'.
Proof.
  unfold enter_servicing_trip, rbind. intro H. repeat dmatch H. facts.
  match goal with P : pick_up_trip _ _ _ _ = Ok ?a |- _ => exists v, a end.
  split; [reflexivity|]. split; [|auto]. cbn. repeat split; auto. exists r0. auto.
Qed.

(* an accepted enter has checked the guard of the activity st' it enters and has left under the vehicle's id the record w:
   the old record (after the fare, for a trip) in the activity st' *)
Theorem vs_enter_spec vid st s s' : vs_enter env (vid, st) s = Ok s' ->
  exists v st' w, find vid (vehicles s) = Some v /\ guard s v st' /\
     (st' = st \/ exists sid cid r, st = DispatchStation sid cid r /\ st' = ChargingStation sid cid) /\
     (forall k, find k (vehicles s') = if Pos.eqb k (v_id v) then Some w else find k (vehicles s)) /\
     v_state w = st' /\ v_id w = v_id v /\ v_mem w = v_mem v /\ v_pos w = v_pos v.
Proof.
  intro H.
  (* all activities but a trip being served end in one state write of the record found *)
  match goal with |- ?Goal =>
    assert (Ent : forall v st', find vid (vehicles s) = Some v -> guard s v st' -> entered s s' v st' ->
                    (st' = st \/ exists sid cid r, st = DispatchStation sid cid r /\ st' = ChargingStation sid cid) -> Goal) end.
  { intros v st' F G En Alt. exists v, st', (v <| v_state := st' |>). unfold entered in En.
    split; [exact F|]. split; [exact G|]. split; [exact Alt|]. split; [intro k; rewrite En; apply find_add|repeat split]. }
  unfold vs_enter in H. destruct st.
  - pose proof H as A. apply apply_new_vehicle_state_spec in A. destruct A as (v & F & _). apply (Ent v (Idle idle_duration) F I); [eapply finish; eauto|auto].
  - destruct (enter_repositioning_guard _ _ _ _ H) as (v & F & G & En). exact (Ent v _ F G En (or_introl eq_refl)).
  - destruct (enter_dispatch_trip_guard _ _ _ _ _ H) as (v & F & G & En). exact (Ent v _ F G En (or_introl eq_refl)).
  - (* the fare is paid to the record under v's own id, then the activity written under the same id *)
    destruct (enter_servicing_trip_guard _ _ _ _ _ _ H) as (v & a & F & G & Pk & A).
    destruct (pick_up_trip_spec env _ _ _ _ Pk) as (pv & pr & Fpv & _ & Va & _). rewrite F in Fpv. inv Fpv.
    apply apply_new_vehicle_state_spec in A. destruct A as (x & Fx & V & _). rewrite Va, find_add in Fx.
    assert (X : v_id x = v_id pv /\ v_mem x = v_mem pv /\ v_pos x = v_pos pv)
      by (destruct (Pos.eqb vid (v_id pv)); [inv Fx; auto|rewrite F in Fx; inv Fx; auto]).
    destruct X as (Xi & Xm & Xp). exists pv, (ServicingTrip req departure route), (x <| v_state := ServicingTrip req departure route |>).
    split; [exact F|]. split; [exact G|]. split; [auto|]. split; [|repeat split; assumption].
    intro k. rewrite V, Va, Xi, !find_add. destruct (Pos.eqb k (v_id pv)); reflexivity.
  - destruct (enter_dispatch_station_guard _ _ _ _ _ _ H) as (v & st' & F & G & En & [->| ->]); apply (Ent v _ F G En); [left; reflexivity|right; eauto].
  - destruct (enter_charging_station_guard _ _ _ _ _ H) as (v & F & G & En). exact (Ent v _ F G En (or_introl eq_refl)).
  - destruct (enter_charge_queueing_guard _ _ _ _ _ _ H) as (v & F & G & En). exact (Ent v _ F G En (or_introl eq_refl)).
  - destruct (enter_dispatch_base_guard _ _ _ _ _ H) as (v & F & G & En). exact (Ent v _ F G En (or_introl eq_refl)).
  - destruct (enter_reserve_base_guard _ _ _ _ H) as (v & F & G & En). exact (Ent v _ F G En (or_introl eq_refl)).
  - destruct (enter_charging_base_guard _ _ _ _ _ H) as (v & F & G & En). exact (Ent v _ F G En (or_introl eq_refl)).
  - pose proof H as A. apply apply_new_vehicle_state_spec in A. destruct A as (v & F & _). apply (Ent v OutOfService F I); [eapply finish; eauto|auto].
Qed.
(* every accepted enter has checked its guard (C07 location conjuncts, C10 membership conjuncts) *)
Theorem vs_enter_guard vid st s s' : vs_enter env (vid, st) s = Ok s' ->
  exists v st', find vid (vehicles s) = Some v /\ guard s v st' /\
     (st' = st \/ exists sid cid r, st = DispatchStation sid cid r /\ st' = ChargingStation sid cid).
Proof. intro H. destruct (vs_enter_spec _ _ _ _ H) as (v & st' & _ & F & G & Alt & _). eauto. Qed.

Lemma route_corr_spec r src dst : route_corr r src (Some dst) = true ->
  match r with
  | [] => p_geoid src = p_geoid dst
  | l0 :: _ => l_start l0 = p_geoid src /\ l_end (last r l0) = p_geoid dst
  end.
Proof.
  unfold route_corr. destruct r as [|l0 r'].
  - unfold pos_eqb. intro H. apply andb_true_iff in H. destruct H as [_ H]. apply Pos.eqb_eq in H. exact H.
  - intro H. apply andb_true_iff in H. destruct H as [A B]. apply Pos.eqb_eq in A, B. auto.
Qed.

(* a trip is started only at the request's origin: the only producer of a ServicingTrip state is the default
   transition out of DispatchTrip, which demands co-location *)
Lemma trip_starts_at_origin vid rid route s q dep r : 
  default_terminal_state env vid (DispatchTrip rid route) s = Ok (ServicingTrip q dep r) ->
  exists v, find vid (vehicles s) = Some v /\ find rid (requests s) = Some q /\ r_geoid q = v_geoid v.
Proof.
  cbn. intro H. repeat dmatch H. inv H. facts. exists v. auto.
Qed.
(* ... and ended only at its destination: drop_off_trip refuses elsewhere *)
Lemma trip_ends_at_destination s vid q s' : drop_off_trip s vid q = Ok s' -> (0 < r_npass q)%Z ->
  exists v, find vid (vehicles s) = Some v /\ p_geoid (r_dest q) = v_geoid v.
Proof.
  unfold drop_off_trip. intros H P. repeat dmatch H. exists v. split; [reflexivity|].
  apply andb_false_iff in E0. destruct E0 as [E0|E0].
  - apply Z.ltb_ge in E0. lia.
  - apply negb_false_iff in E0. apply Pos.eqb_eq in E0. exact E0.
Qed.
End S.
