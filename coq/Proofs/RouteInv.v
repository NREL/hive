(* Proofs/RouteInv.v — C07 (second sentence) over whole histories: a travelling vehicle's planned route is a connected walk that
   starts at the vehicle's current place and ends at the entity it was sent to (station, base, the request it is assigned to),
   so that when the route is exhausted the vehicle is at that entity.  Hypotheses on the environment: the road network's router
   answers with a walk from the origin to the destination (C13 for the OSM network, immediate for the haversine network), and
   the step length is positive. *)
From Hive.Base Require Import Prelude.
From Hive.Model Require Import Types KernelBase SimOps States Step.
From Hive.Gen Require Import Kernels.
From Hive.Proofs Require Import SimFacts Writes VehFrame Move Macro Guards CountInv DispInv PlaceInv Traverse Walk.

Section R.
Variable env : Env.
Hypothesis router_ok : forall a b, walk (p_geoid a) (e_route env a b) = Some (p_geoid b).

Definition on_route (s : Sim) (v : Vehicle) : Prop :=
  match v_state v with
  | Repositioning r => exists h, walk (v_geoid v) r = Some h
  | ServicingTrip q _ r => walk (v_geoid v) r = Some (p_geoid (r_dest q))
  | DispatchTrip rid r =>
      exists h, walk (v_geoid v) r = Some h /\ forall q, find rid (requests s) = Some q -> r_disp q = Some (v_id v) -> h = r_geoid q
  | DispatchStation sid _ r => exists h x, walk (v_geoid v) r = Some h /\ find sid (stations s) = Some x /\ h = s_geoid x
  | DispatchBase bid r => exists h b, walk (v_geoid v) r = Some h /\ find bid (bases s) = Some b /\ h = b_geoid b
  | _ => True
  end.
Definition Inv_route (s : Sim) : Prop :=
  (0 < dt s)%Z /\ skeys (stations s) /\ bkeys (bases s) /\ forall vid v, find vid (vehicles s) = Some v -> on_route s v.

(* when the route is exhausted the vehicle is at the entity *)
Lemma arrived s v : on_route s v ->
  match v_state v with
  | DispatchStation sid _ [] => exists x, find sid (stations s) = Some x /\ v_geoid v = s_geoid x
  | DispatchBase bid [] => exists b, find bid (bases s) = Some b /\ v_geoid v = b_geoid b
  | DispatchTrip rid [] => forall q, find rid (requests s) = Some q -> r_disp q = Some (v_id v) -> v_geoid v = r_geoid q
  | ServicingTrip q _ [] => v_geoid v = p_geoid (r_dest q)
  | _ => True
  end.
Proof.
  unfold on_route. destruct (v_state v); auto; destruct route; auto.
  - intros (h & W & T) q F D. cbn in W. inv W. eauto.
  - intro W. cbn in W. congruence.
  - intros (h & x & W & F & T). cbn in W. inv W. eauto.
  - intros (h & b & W & F & T). cbn in W. inv W. eauto.
Qed.

(* on_route reads the state through the frames, and of the vehicle its identity, place and activity *)
Lemma on_route_frame but s s' v : sframe s s' -> rframe but s s' -> Some (v_id v) <> but -> on_route s v -> on_route s' v.
Proof.
  intros Fr FR N. unfold on_route. destruct (v_state v) eqn:Est; auto.
  - intros (h & W & T). exists h. split; [exact W|]. intros q' Fq Dq. destruct (FR _ _ _ Fq Dq N) as (q & F0 & D0 & _ & P0).
    rewrite (T q F0 D0). unfold r_geoid. rewrite P0. reflexivity.
  - intros (h & x & W & F & T). destruct (station_kept _ _ _ _ Fr F) as (x' & F' & Eg & _). exists h, x'. rewrite Eg. auto.
  - intros (h & b & W & F & T). destruct (base_kept _ _ _ _ Fr F) as (b' & F' & Eg & _). exists h, b'. rewrite Eg. auto.
Qed.
Lemma on_route_fields s v w : v_id w = v_id v -> v_pos w = v_pos v -> v_mem w = v_mem v -> v_state w = v_state v -> on_route s v -> on_route s w.
Proof. intros Hi Hp _ Hs. unfold on_route, v_geoid. rewrite Hi, Hp, Hs. auto. Qed.
(* the vehicle advanced along its route: same activity, same target, remaining route from the new place *)
Lemma on_route_moved s v w r r' : v_state w = update_route (v_state v) r' -> v_id w = v_id v -> state_route (v_state v) = Some r ->
  (forall h, walk (v_geoid v) r = Some h -> walk (v_geoid w) r' = Some h) -> on_route s v -> on_route s w.
Proof.
  intros Es Ei Sr Wk. unfold on_route. rewrite Es, Ei. destruct (v_state v); cbn in Sr; try discriminate Sr; inv Sr; cbn.
  - intros (h & W). eauto.
  - intros (h & W & T). eauto.
  - intros W. eauto.
  - intros (h & x & W & F & T). exists h, x. auto.
  - intros (h & b & W & F & T). exists h, b. auto.
Qed.
Lemma on_route_still s v w : v_state w = v_state v -> v_id w = v_id v -> state_route (v_state v) = None -> on_route s w.
Proof. intros Es Ei Sr. unfold on_route. rewrite Es. destruct (v_state v); cbn in Sr; try discriminate Sr; exact I. Qed.
Lemma on_route_idle s v d : v_state v = Idle d -> on_route s v.
Proof. intro E. apply (on_route_still s v v eq_refl eq_refl). rewrite E. reflexivity. Qed.
Lemma on_route_out s v : v_state v = OutOfService -> on_route s v.
Proof. intro E. apply (on_route_still s v v eq_refl eq_refl). rewrite E. reflexivity. Qed.

(* Inv_route is Inv_veh on_route plus a positive step length, which no write touches *)
Lemma route_dt V E A T s s' : Writes env V E A T s s' -> Inv_route s -> Inv_veh on_route s' -> Inv_route s'.
Proof. intros W (D & _) J. split; [rewrite (Writes_dt env _ _ _ _ _ _ W); exact D|exact J]. Qed.

(* transition: the router's answer from the vehicle's place, ending where the guard says *)
Lemma route_end_target r src dst h : walk (p_geoid src) r = Some h -> route_corr r src (Some dst) = true -> h = p_geoid dst.
Proof.
  intros W C. apply route_corr_spec in C. destruct r as [|l0 r]; [cbn in W; congruence|].
  destruct C as [_ C]. rewrite <- C. symmetry. apply (walk_last (l0 :: r) (p_geoid src) h l0); [discriminate|exact W].
Qed.

Lemma enter_state_alt vid nx s1 s' w : vkeys s1 -> vs_enter env (vid, nx) s1 = Ok s' -> find vid (vehicles s') = Some w ->
  v_state w = nx \/ state_route (v_state w) = None.
Proof.
  intros K N Fw. destruct (vs_enter_spec env _ _ _ _ N) as (v & st' & w' & F & _ & Alt & Fw' & Es & _).
  specialize (Fw' vid). rewrite (K _ _ F), Pos.eqb_refl in Fw'. assert (w' = w) by congruence. subst w' st'.
  destruct Alt as [E|(sid & cid & r & _ & E)]; rewrite E; auto.
Qed.

Lemma transition_route s vid st nx s' : Inv_route s -> vkeys s -> transition env s (vid, st) (vid, nx) = Ok s' -> sourced env s vid nx -> Inv_route s'.
Proof.
  intros J K T Src. pose proof (transition_writes env (fun _ => True) nothing True _ _ _ _ _ (fun _ _ => I) T) as W.
  apply (route_dt _ _ _ _ s s' W J). destruct J as (_ & J). pose proof J as (SK & BK & _).
  destruct (transition_enter env s vid st nx s' K SK BK T) as (Rf & s1 & v & st' & w & N & K1 & Fr & Fv & G & Fw & Es & Em & Ep & Ei & Alt).
  apply (Inv_writes env on_route on_route_frame vid _ _ _ s s' W J K Rf).
  intros w0 Fw0. assert (w0 = w) by congruence. subst w0 st'.
  destruct Alt as [E|E]; [|exact (on_route_still s' w w eq_refl eq_refl E)].
  assert (Wk : forall r, state_route nx = Some r -> exists h, walk (v_geoid w) r = Some h /\ forall dst, route_corr r (v_pos v) (Some dst) = true -> h = p_geoid dst).
  { intros r Hr. destruct (Src r Hr) as (a & b & v0 & -> & F0 & Ga & _). rewrite Fv in F0. inv F0.
    exists (p_geoid b). unfold v_geoid. rewrite Ep. fold (v_geoid v0). rewrite <- Ga. split; [apply router_ok|].
    intros dst C. apply (route_end_target (e_route env a b) (v_pos v0) dst); [unfold v_geoid in Ga; rewrite <- Ga; apply router_ok|exact C]. }
  unfold on_route. rewrite E in *. destruct nx; auto; cbn in G.
  - destruct (Wk route eq_refl) as (h & Wh & _). eauto.
  - (* the request just assigned is the request the guard was checked against *)
    destruct (Wk route eq_refl) as (h & Wh & Tg). exists h. split; [exact Wh|]. destruct G as (q0 & F0 & C0 & _).
    intros q Fq Dq.
    destruct (enter_effect env vid _ s1 s' K1 N) as (v2 & Fv2 & [(rid0 & route0 & r & St & Fr0 & Rq)|[NG _]]); rewrite Fw in Fv2; inv Fv2.
    + rewrite E in St. inv St. rewrite F0 in Fr0. inv Fr0. rewrite (Tg _ C0).
      rewrite Rq, find_add in Fq. destruct (Pos.eqb rid0 (r_id r)); [inv Fq; reflexivity|]. assert (q = r) by congruence. subst q. reflexivity.
    + exfalso. eapply NG. rewrite E. eexists. reflexivity.
  - destruct (Src route eq_refl) as (a & b & v0 & Er & F0 & Ga & Dq). rewrite Fv in F0. inv F0. rewrite (Dq _ _ eq_refl).
    unfold v_geoid. rewrite Ep. fold (v_geoid v0). rewrite <- Ga. apply router_ok.
  - destruct (Wk route eq_refl) as (h & Wh & Tg). destruct G as (x & F0 & C0 & _).
    destruct (station_kept _ _ _ _ Fr F0) as (x' & F' & Eg & _). exists h, x'. split; [exact Wh|]. split; [exact F'|]. rewrite (Tg _ C0), Eg. reflexivity.
  - destruct (Wk route eq_refl) as (h & Wh & Tg). destruct G as (b & F0 & C0 & _).
    destruct (base_kept _ _ _ _ Fr F0) as (b' & F' & Eg & _). exists h, b'. split; [exact Wh|]. split; [exact F'|]. rewrite (Tg _ C0), Eg. reflexivity.
Qed.

Lemma move_route s vid s' : Inv_route s -> vkeys s -> move env s vid = Ok s' -> Inv_veh on_route s'.
Proof.
  intros (D & J) K H. pose proof J as (_ & _ & Jv).
  destruct (move_cases env s vid s' H) as (v & m & route & tr & Fv & _ & Sr & T & [(X & M)|[(_ & G)|(e0 & w & X & _ & Ew & M)]]).
  - (* nothing driven: the route is dropped; the vehicle already is where the route ends *)
    apply (Inv_modv env on_route on_route_frame s _ s' J K M).
    apply (on_route_moved s v _ route []); [reflexivity|reflexivity|exact Sr| |exact (Jv _ _ Fv)].
    intros h W. cbn. rewrite (traverse_nothing env _ _ _ _ _ (ltac:(lia) : dt s <> 0%Z) W T X). reflexivity.
  - exact (go_out_inv env on_route on_route_frame on_route_out s vid v s' J K Fv G).
  - (* the remaining route starts where the last link driven ends *)
    destruct (moved_fields m v _ _ _ _ w Ew) as (Ei & Es & _ & _ & _ & Epos & _).
    apply (Inv_modv env on_route on_route_frame (emit s _) w s' J K M).
    apply (on_route_moved s v w route (rt_rem tr) Es Ei Sr); [|exact (Jv _ _ Fv)].
    intros h W. assert (Ne : rt_exp tr <> []) by (rewrite X; discriminate).
    pose proof (traverse_walk env _ _ _ _ _ W T Ne) as Wf. rewrite walk_app in Wf.
    destruct (walk (v_geoid v) (rt_exp tr)) as [m0|] eqn:We; [|discriminate].
    pose proof (walk_last (rt_exp tr) _ _ e0 Ne We) as Lm. unfold v_geoid. rewrite Epos. cbn [p_geoid]. rewrite Lm. exact Wf.
Qed.
Lemma perform_route s vid st s' : Inv_route s -> vkeys s -> vstate_of s vid = Some st -> perform_update env vid st s = Ok s' -> Inv_route s'.
Proof.
  intros J K Hst H. apply (route_dt _ _ _ _ s s' (perform_writes env (fun _ => True) nothing True vid st s s' (fun _ _ => I) H) J).
  exact (perform_inv env on_route on_route_frame on_route_fields on_route_idle s vid st s' (fun a M => move_route s vid a J K M) (proj2 J) K Hst H).
Qed.

(* every macro step: a transition and _perform_update as above, the others through the frames of PlaceInv.v *)
Lemma mstep_route s s' : vkeys s -> Inv_route s -> MStep env s s' -> Inv_route s'.
Proof.
  apply (mstep_cases env Inv_route).
  - intros a vid st nx b K J _ Src T. exact (transition_route a vid st nx b J K T Src).
  - intros a vid st b K J. exact (perform_route a vid st b J K).
  - intros a rid J. exact (route_dt _ _ _ _ _ _ (cancel_one_writes env (fun _ => True) True anyhow a rid) J (cancel_inv env on_route on_route_frame a rid (proj2 J))).
  - intros a r D J. exact (route_dt _ _ _ _ _ _ (admit_request_writes env (fun _ => True) True anyhow a r I) J (admit_inv env on_route on_route_frame a r D (proj2 J))).
  - intros a sid prices J.
    exact (route_dt _ _ _ _ _ _ (update_station_prices_writes env (fun _ => True) True anyhow a sid prices) J (price_inv env on_route on_route_frame a sid prices (proj2 J))).
  - intros rt a v b K J H.
    exact (route_dt _ _ _ _ _ _ (driver_update_writes env (fun _ => True) True rt a v b H) J (driver_inv env on_route on_route_frame on_route_fields rt a v b K (proj2 J) H)).
  - intros a b (V & S & B & R & _ & _ & _ & _ & _ & _ & _ & _ & Dt & _) _ (D & J).
    split; [rewrite Dt; exact D|exact (Inv_ext on_route on_route_frame a b V S B (rframe_same _ _ _ R) J)].
  - intros a (D & J). split; [exact D|exact (Inv_ext on_route on_route_frame a (sim_tick a) eq_refl eq_refl eq_refl (rframe_same _ _ _ eq_refl) J)].
Qed.

(* C07, second sentence, over every finite history, any controller *)
Theorem route_invariant ops : forall s0, vkeys s0 -> Inv_route s0 -> Forall op_ok ops ->
  vkeys (fold_left (step_op env) ops s0) /\ Inv_route (fold_left (step_op env) ops s0).
Proof. apply (history_invariant env Inv_route). intros s s' K I M. eapply mstep_route; eauto. Qed.
Lemma Inv_route_initial s : (0 < dt s)%Z -> skeys (stations s) -> bkeys (bases s) ->
  (forall k v, find k (vehicles s) = Some v -> state_route (v_state v) = None) -> Inv_route s.
Proof.
  intros D SK BK HV. split; [exact D|]. split; [exact SK|]. split; [exact BK|]. intros k v F.
  exact (on_route_still s v v eq_refl eq_refl (HV k v F)).
Qed.
End R.

(* the haversine road network satisfies the router hypothesis *)
From Hive.Model Require Import Harness.
Lemma hav_router_ok parents gctab midtab mechs cancel fleets scheds a b :
  walk (p_geoid a) (e_route (mk_hav_env parents gctab midtab mechs cancel fleets scheds) a b) = Some (p_geoid b).
Proof.
  cbn. unfold hav_route. destruct (pos_eqb a b) eqn:E.
  - cbn. unfold pos_eqb in E. apply andb_true_iff in E. destruct E as [_ E]. apply Pos.eqb_eq in E. congruence.
  - cbn. rewrite Pos.eqb_refl. reflexivity.
Qed.
