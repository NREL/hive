(* Proofs/Count.v — counting the entries of a positive map that satisfy a predicate: defined by recursion over the map's own
   tree, equal to the length of the filtered element list, and with an exact law for a single write. *)
From Hive.Base Require Import Prelude.
Local Open Scope Z_scope.

Definition b2z (b : bool) : Z := if b then 1 else 0.
Fixpoint cnt {A} (P : A -> bool) (m : pmap A) : Z :=
  match m with
  | PM.Leaf _ => 0
  | PM.Node l o r => cnt P l + match o with Some a => b2z (P a) | None => 0 end + cnt P r
  end.

Lemma cnt_nonneg {A} (P : A -> bool) m : 0 <= cnt P m.
Proof. induction m as [|l IHl o r IHr]; cbn; [lia|]. destruct o as [a|]; [destruct (P a)|]; cbn; lia. Qed.

Lemma cnt_empty {A} (P : A -> bool) : cnt P (PM.empty A) = 0.
Proof. reflexivity. Qed.

Lemma cnt_add {A} (P : A -> bool) k w : forall m,
  cnt P (PM.add k w m) = cnt P m - match PM.find k m with Some a => b2z (P a) | None => 0 end + b2z (P w).
Proof.
  induction k as [k IH|k IH|]; intros [|l o r]; cbn.
  - rewrite IH. cbn. destruct k; cbn; lia.
  - rewrite IH. lia.
  - rewrite IH. cbn. destruct k; cbn; lia.
  - rewrite IH. lia.
  - lia.
  - destruct o; lia.
Qed.

Lemma cnt_ext {A} (P Q : A -> bool) m : (forall a, P a = Q a) -> cnt P m = cnt Q m.
Proof. intro E. induction m as [|l IHl o r IHr]; cbn; [reflexivity|]. rewrite IHl, IHr. destruct o; [rewrite E|]; reflexivity. Qed.

Definition cntl {A} (P : A -> bool) (l : list (positive * A)) : Z := Z.of_nat (length (filter (fun kv => P (snd kv)) l)).
Lemma cntl_app {A} (P : A -> bool) l1 l2 : cntl P (l1 ++ l2) = cntl P l1 + cntl P l2.
Proof. unfold cntl. rewrite filter_app, app_length. lia. Qed.
Lemma cnt_xelements {A} (P : A -> bool) m : forall j, cntl P (PM.xelements m j) = cnt P m.
Proof.
  induction m as [|l IHl o r IHr]; intro j; cbn; [reflexivity|].
  destruct o as [a|]; rewrite cntl_app.
  - change ((j, a) :: PM.xelements r (FMapPositive.append j 3)) with ([(j, a)] ++ PM.xelements r (FMapPositive.append j 3)).
    rewrite cntl_app, IHl, IHr. assert (E : cntl P [(j, a)] = b2z (P a)) by (unfold cntl; cbn; destruct (P a); reflexivity). rewrite E. lia.
  - rewrite IHl, IHr. lia.
Qed.
Theorem cnt_elements {A} (P : A -> bool) m : cnt P m = Z.of_nat (length (filter (fun kv => P (snd kv)) (PM.elements m))).
Proof. symmetry. apply (cnt_xelements P m 1%positive). Qed.

Lemma cnt_zero {A} (P : A -> bool) m : (forall k a, PM.find k m = Some a -> P a = false) -> cnt P m = 0.
Proof.
  induction m as [|l IHl o r IHr]; intro H; cbn; [reflexivity|].
  rewrite IHl by (intros k a F; apply (H (xO k) a); exact F).
  rewrite IHr by (intros k a F; apply (H (xI k) a); exact F).
  destruct o as [a|]; [|reflexivity]. rewrite (H xH a eq_refl). reflexivity.
Qed.

Lemma cnt_member {A} (P : A -> bool) a m : forall k, PM.find k m = Some a -> P a = true -> 1 <= cnt P m.
Proof.
  induction m as [|l IHl o r IHr]; intros k F Pa; [destruct k; discriminate|]. cbn [cnt].
  pose proof (cnt_nonneg P l). pose proof (cnt_nonneg P r).
  assert (0 <= match o with Some x => b2z (P x) | None => 0 end) by (destruct o as [x|]; [destruct (P x)|]; cbn; lia).
  destruct k as [k|k|]; cbn in F; [specialize (IHr k F Pa); lia|specialize (IHl k F Pa); lia|]. rewrite F, Pa. cbn [b2z]. lia.
Qed.
