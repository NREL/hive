(* Proofs/Counters.v — C02: the bounded counters of charger_state.py and base.py (generated kernels):
   each operation moves exactly one counter by exactly one, refuses instead of leaving [0, total], and touches nothing else. *)
From Hive.Base Require Import Prelude.
From Hive.Model Require Import Types KernelBase.
From Hive.Gen Require Import Kernels.
Local Open Scope Z_scope.

Definition cs_bounds (cs : ChargerState) : Prop := 0 <= cs_avail cs <= cs_total cs /\ 0 <= cs_enq cs.
Definition cs_same_but_counts (a b : ChargerState) : Prop :=
  cs_id b = cs_id a /\ cs_charger b = cs_charger a /\ cs_total b = cs_total a /\ cs_price b = cs_price a.

(* reading a specification written as a match on the answer, when the answer is known *)
Lemma ok_case {A} {P : A -> Prop} {E R : Prop} {r : res A} {a} :
  match r with Ok x => P x | Err => E | Reject => R end -> r = Ok a -> P a.
Proof. intros S ->. exact S. Qed.
Lemma some_case {A} {P : A -> Prop} {N : Prop} {o : option A} {a} :
  match o with Some x => P x | None => N end -> o = Some a -> P a.
Proof. intros S ->. exact S. Qed.

(* a decrement refuses exactly at 0, whatever the sign of the counter; of a non-negative counter, Ok then says it was positive *)
Lemma cs_decrement_available_cases cs :
  match cs_decrement_available cs with
  | Ok cs' => cs_avail cs <> 0 /\ cs_avail cs' = cs_avail cs - 1 /\ cs_enq cs' = cs_enq cs /\ cs_same_but_counts cs cs'
  | Err => cs_avail cs = 0
  | Reject => False
  end.
Proof.
  unfold cs_decrement_available. destruct (Z.eqb_spec (cs_avail cs) 0) as [E|E]; [exact E|].
  unfold cs_same_but_counts; cbn. repeat split; lia.
Qed.
Lemma cs_decrement_available_spec cs : 0 <= cs_avail cs ->
  match cs_decrement_available cs with
  | Ok cs' => 0 < cs_avail cs /\ cs_avail cs' = cs_avail cs - 1 /\ cs_enq cs' = cs_enq cs /\ cs_same_but_counts cs cs'
  | Err => cs_avail cs = 0
  | Reject => False
  end.
Proof.
  intro H. pose proof (cs_decrement_available_cases cs) as S. destruct (cs_decrement_available cs); [|exact S..].
  destruct S as [N S]. split; [lia|exact S].
Qed.
Lemma cs_increment_available_spec cs :
  match cs_increment_available cs with
  | Ok cs' => cs_avail cs < cs_total cs /\ cs_avail cs' = cs_avail cs + 1 /\ cs_enq cs' = cs_enq cs /\ cs_same_but_counts cs cs'
  | Err => cs_total cs <= cs_avail cs
  | Reject => False
  end.
Proof.
  unfold cs_increment_available. destruct (Z.leb_spec (cs_total cs) (cs_avail cs)) as [E|E]; [exact E|].
  unfold cs_same_but_counts; cbn. repeat split; lia.
Qed.
Lemma cs_increment_enqueued_spec cs :
  let cs' := cs_increment_enqueued cs in
  cs_enq cs' = cs_enq cs + 1 /\ cs_avail cs' = cs_avail cs /\ cs_same_but_counts cs cs'.
Proof. unfold cs_increment_enqueued, cs_same_but_counts; cbn. repeat split; lia. Qed.
Lemma cs_decrement_enqueued_cases cs :
  match cs_decrement_enqueued cs with
  | Ok cs' => cs_enq cs <> 0 /\ cs_enq cs' = cs_enq cs - 1 /\ cs_avail cs' = cs_avail cs /\ cs_same_but_counts cs cs'
  | Err => cs_enq cs = 0
  | Reject => False
  end.
Proof.
  unfold cs_decrement_enqueued. destruct (Z.eqb_spec (cs_enq cs) 0) as [E|E]; [exact E|].
  unfold cs_same_but_counts; cbn. repeat split; lia.
Qed.
Lemma cs_decrement_enqueued_spec cs : 0 <= cs_enq cs ->
  match cs_decrement_enqueued cs with
  | Ok cs' => 0 < cs_enq cs /\ cs_enq cs' = cs_enq cs - 1 /\ cs_avail cs' = cs_avail cs /\ cs_same_but_counts cs cs'
  | Err => cs_enq cs = 0
  | Reject => False
  end.
Proof.
  intro H. pose proof (cs_decrement_enqueued_cases cs) as S. destruct (cs_decrement_enqueued cs); [|exact S..].
  destruct S as [N S]. split; [lia|exact S].
Qed.
Lemma cs_has_available_spec cs : cs_has_available_charger cs = true <-> 0 < cs_avail cs.
Proof. unfold cs_has_available_charger. apply Z.ltb_lt. Qed.

(* merging a repeated (station, plug type) row of the stations file: installed and free grow together *)
Lemma cs_add_chargers_spec cs n : let cs' := cs_add_chargers cs n in
  cs_total cs' = cs_total cs + n /\ cs_avail cs' = cs_avail cs + n /\ cs_total cs' - cs_avail cs' = cs_total cs - cs_avail cs /\
  cs_enq cs' = cs_enq cs /\ cs_id cs' = cs_id cs /\ cs_charger cs' = cs_charger cs /\ cs_price cs' = cs_price cs.
Proof. unfold cs_add_chargers. cbn. repeat split; lia. Qed.

Lemma cs_bounds_preserved cs : cs_bounds cs ->
  (forall cs', cs_decrement_available cs = Ok cs' -> cs_bounds cs') /\
  (forall cs', cs_increment_available cs = Ok cs' -> cs_bounds cs') /\
  cs_bounds (cs_increment_enqueued cs) /\
  (forall cs', cs_decrement_enqueued cs = Ok cs' -> cs_bounds cs').
Proof.
  intros [[H1 H2] H3]. unfold cs_bounds. split; [|split; [|split]].
  - intros cs' E. apply (ok_case (cs_decrement_available_spec cs H1)) in E. unfold cs_same_but_counts in E. lia.
  - intros cs' E. apply (ok_case (cs_increment_available_spec cs)) in E. unfold cs_same_but_counts in E. lia.
  - cbn. lia.
  - intros cs' E. apply (ok_case (cs_decrement_enqueued_spec cs H3)) in E. unfold cs_same_but_counts in E. lia.
Qed.

Definition base_bounds (b : Base) : Prop := 0 <= b_avail b <= b_total b.
Definition base_same_but_stalls (a b : Base) : Prop :=
  b_id b = b_id a /\ b_pos b = b_pos a /\ b_mem b = b_mem a /\ b_total b = b_total a /\ b_station b = b_station a.

Lemma base_checkout_stall_spec b :
  match base_checkout_stall b with
  | Some b' => 0 < b_avail b /\ b_avail b' = b_avail b - 1 /\ base_same_but_stalls b b'
  | None => b_avail b <= 0
  end.
Proof.
  unfold base_checkout_stall. destruct (Z.ltb_spec (b_avail b) 1); [lia|].
  unfold base_same_but_stalls; cbn. repeat split; lia.
Qed.
Lemma base_return_stall_spec b :
  match base_return_stall b with
  | Ok b' => b_avail b < b_total b /\ b_avail b' = b_avail b + 1 /\ base_same_but_stalls b b'
  | Err => b_total b <= b_avail b
  | Reject => False
  end.
Proof.
  unfold base_return_stall. destruct (Z.ltb_spec (b_total b) (b_avail b + 1)); [lia|].
  unfold base_same_but_stalls; cbn. repeat split; lia.
Qed.
Lemma base_bounds_preserved b : base_bounds b ->
  (forall b', base_checkout_stall b = Some b' -> base_bounds b') /\
  (forall b', base_return_stall b = Ok b' -> base_bounds b').
Proof.
  intros [H1 H2]. unfold base_bounds. split; intros b' E.
  - apply (some_case (base_checkout_stall_spec b)) in E. unfold base_same_but_stalls in E. lia.
  - apply (ok_case (base_return_stall_spec b)) in E. unfold base_same_but_stalls in E. lia.
Qed.
Lemma base_has_available_stall_spec b mem :
  base_has_available_stall b mem = true <-> 0 < b_avail b /\ grant_access_to_membership (b_mem b) mem = true.
Proof. unfold base_has_available_stall. rewrite andb_true_iff, Z.ltb_lt. tauto. Qed.
