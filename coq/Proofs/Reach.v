(* Proofs/Reach.v — every function of the step model (States.v, Step.v) changes the simulation state only through
   the primitive writes of SimOps.v (modify_* / add_request / remove_request) and ghost updates (event log,
   applied_instructions, clock): the atomic writes of Writes.v with what they wrote forgotten.  The index invariant (C08)
   is proved over this relation. *)
From Hive.Base Require Import Prelude.
From Hive.Model Require Import Types KernelBase SimOps States Step.
From Hive.Gen Require Import Kernels.
From Hive.Proofs Require Import Writes.

Section Reach.
Variable env : Env.

(* everything but log / applied is untouched *)
Definition same_entities (s s' : Sim) : Prop :=
  vehicles s' = vehicles s /\ stations s' = stations s /\ bases s' = bases s /\ requests s' = requests s /\
  v_loc s' = v_loc s /\ r_loc s' = r_loc s /\ s_loc s' = s_loc s /\ b_loc s' = b_loc s /\
  v_search s' = v_search s /\ r_search s' = r_search s /\ s_search s' = s_search s /\ b_search s' = b_search s /\
  dt s' = dt s /\ sim_time s' = sim_time s.

Inductive Prim (A : Request -> Prop) (T : Prop) : Sim -> Sim -> Prop :=
| P_modv s v s' : modify_vehicle env s v = Ok s' -> Prim A T s s'
| P_mods s x s' : modify_station env s x = Ok s' -> Prim A T s s'
| P_modb s x s' : modify_base env s x = Ok s' -> Prim A T s s'
| P_modr s x s' : modify_request env s x = Ok s' -> Prim A T s s'
| P_remr s k s' : remove_request env s k = Ok s' -> Prim A T s s'
| P_addr s r s' : A r -> add_request env s r = Ok s' -> Prim A T s s'
| P_ghost s s' : same_entities s s' -> Prim A T s s'
| P_tick s : T -> Prim A T s (sim_tick s).

Inductive Reach (A : Request -> Prop) (T : Prop) : Sim -> Sim -> Prop :=
| R_refl s : Reach A T s s
| R_step s s' s'' : Prim A T s s' -> Reach A T s' s'' -> Reach A T s s''.

Lemma Reach_trans A T s1 s2 s3 : Reach A T s1 s2 -> Reach A T s2 s3 -> Reach A T s1 s3.
Proof. induction 1; intros; [assumption|]. econstructor; eauto. Qed.
Lemma Reach_one A T s s' : Prim A T s s' -> Reach A T s s'.
Proof. intro. econstructor; [eassumption|constructor]. Qed.
Lemma Reach_mono (A B : Request -> Prop) (T U : Prop) s s' : (forall r, A r -> B r) -> (T -> U) -> Reach A T s s' -> Reach B U s s'.
Proof.
  intros I J. induction 1; [constructor|]. econstructor; [|eassumption].
  destruct H; [eapply P_modv|eapply P_mods|eapply P_modb|eapply P_modr|eapply P_remr|eapply P_addr|eapply P_ghost|eapply P_tick]; eauto.
Qed.

Lemma same_entities_refl s : same_entities s s.
Proof. unfold same_entities; repeat split. Qed.

Lemma rbind_ok {X Y} (r : res X) (f : X -> res Y) y : rbind r f = Ok y -> exists x, r = Ok x /\ f x = Ok y.
Proof. destruct r; cbn; try discriminate. eauto. Qed.

(* forgetting what the atomic writes of Writes.v wrote *)
Lemma Writes_Reach V E A T s s' : Writes env V E A T s s' -> Reach A T s s'.
Proof.
  apply Writes_lift; [constructor|apply Reach_trans|]. clear s s'. intros s s' W. apply Reach_one.
  destruct W; [eapply P_modv|eapply P_mods|eapply P_modb|eapply P_modr|eapply P_remr|eapply P_addr|apply P_ghost|apply P_ghost|apply P_tick]; eauto;
    unfold same_entities; cbn; repeat split.
Qed.

Definition op_admits (o : Op) (r : Request) : Prop :=
  match o with OpAdmit rows => In r rows | _ => False end.

Theorem step_op_reach s o : Reach (op_admits o) (o = OpTick) s (step_op env s o).
Proof. eapply Reach_mono; [| |exact (Writes_Reach _ _ _ _ _ _ (step_op_writes env s o))]; [|auto]. intros r (rows & -> & I). exact I. Qed.

End Reach.
