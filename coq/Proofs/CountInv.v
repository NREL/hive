(* Proofs/CountInv.v — C02 as a state invariant over whole histories: for every station and installed plug type
   0 <= free, installed - free = number of vehicles charging on that plug type there (at the station, or through the base it
   serves), waiting counter = number of vehicles queueing for it; for every base 0 <= free stalls and total - free = number of
   vehicles parked or charging there.  Preserved by every macro step, hence (macro frame theorem) by every operation. *)
From Hive.Base Require Import Prelude.
From Hive.Model Require Import Types KernelBase SimOps States Step.
From Hive.Gen Require Import Kernels.
From Hive.Proofs Require Import SimFacts Writes Reach VehFrame Energy Counters Atomic Trip Move Macro Count.
Local Open Scope Z_scope.

Inductive Hold := H_none | H_plug (sid cid : id) | H_base_plug (bid cid : id) | H_queue (sid cid : id) | H_stall (bid : id).
Definition hold (st : VState) : Hold :=
  match st with
  | ChargingStation s c => H_plug s c
  | ChargingBase b c => H_base_plug b c
  | ChargeQueueing s c _ => H_queue s c
  | ReserveBase b => H_stall b
  | _ => H_none
  end.
Definition bst (bm : pmap Base) (bid : id) : option id := match find bid bm with Some b => b_station b | None => None end.
Definition h_plug (bm : pmap Base) (sid cid : id) (h : Hold) : bool :=
  match h with
  | H_plug s c => Pos.eqb s sid && Pos.eqb c cid
  | H_base_plug b c => match bst bm b with Some s => Pos.eqb s sid && Pos.eqb c cid | None => false end
  | _ => false
  end.
Definition h_queue (sid cid : id) (h : Hold) : bool := match h with H_queue s c => Pos.eqb s sid && Pos.eqb c cid | _ => false end.
Definition h_stall (bid : id) (h : Hold) : bool := match h with H_stall b | H_base_plug b _ => Pos.eqb b bid | _ => false end.
Definition uses_plug (bm : pmap Base) (sid cid : id) (v : Vehicle) : bool := h_plug bm sid cid (hold (v_state v)).
Definition queues (sid cid : id) (v : Vehicle) : bool := h_queue sid cid (hold (v_state v)).
Definition parks (bid : id) (v : Vehicle) : bool := h_stall bid (hold (v_state v)).
Definition slook (sm : pmap Station) (sid cid : id) : option ChargerState :=
  match find sid sm with Some st => find cid (s_state st) | None => None end.
Definition skeys (sm : pmap Station) : Prop := forall k st, find k sm = Some st -> s_id st = k.
Definition bkeys (bm : pmap Base) : Prop := forall k b, find k bm = Some b -> b_id b = k.

Definition CInv (vm : pmap Vehicle) (sm : pmap Station) (bm : pmap Base) : Prop :=
  skeys sm /\ bkeys bm /\
  (forall sid cid cs, slook sm sid cid = Some cs ->
     0 <= cs_avail cs /\ cs_total cs - cs_avail cs = cnt (uses_plug bm sid cid) vm /\ cs_enq cs = cnt (queues sid cid) vm) /\
  (forall bid b, find bid bm = Some b -> 0 <= b_avail b /\ b_total b - b_avail b = cnt (parks bid) vm).
Definition Inv_counts (s : Sim) : Prop := CInv (vehicles s) (stations s) (bases s).

(* the bounds the property states follow *)
Lemma Inv_counts_bounds s : Inv_counts s ->
  (forall sid cid cs, slook (stations s) sid cid = Some cs -> 0 <= cs_avail cs <= cs_total cs /\ 0 <= cs_enq cs) /\
  (forall bid b, find bid (bases s) = Some b -> 0 <= b_avail b <= b_total b).
Proof.
  intros (_ & _ & S & B). split.
  - intros sid cid cs L. destruct (S _ _ _ L) as (A & U & Q).
    pose proof (cnt_nonneg (uses_plug (bases s) sid cid) (vehicles s)). pose proof (cnt_nonneg (queues sid cid) (vehicles s)). lia.
  - intros bid b F. destruct (B _ _ F) as (A & U). pose proof (cnt_nonneg (parks bid) (vehicles s)). lia.
Qed.

(* the generic step: one vehicle record rewritten, counters moved by exactly what it held / holds *)
Lemma h_plug_bst bm bm' sid cid h : (forall b, bst bm' b = bst bm b) -> h_plug bm' sid cid h = h_plug bm sid cid h.
Proof. intro E. destruct h; try reflexivity. cbn. rewrite E. reflexivity. Qed.

Lemma CInv_step vm sm bm vid old w sm' bm' :
  CInv vm sm bm -> find vid vm = Some old -> skeys sm' -> bkeys bm' -> (forall b, bst bm' b = bst bm b) ->
  (forall sid cid cs', slook sm' sid cid = Some cs' -> exists cs, slook sm sid cid = Some cs /\ 0 <= cs_avail cs' /\
      cs_total cs' - cs_avail cs' = cs_total cs - cs_avail cs - b2z (uses_plug bm sid cid old) + b2z (uses_plug bm sid cid w) /\
      cs_enq cs' = cs_enq cs - b2z (queues sid cid old) + b2z (queues sid cid w)) ->
  (forall bid b', find bid bm' = Some b' -> exists b, find bid bm = Some b /\ 0 <= b_avail b' /\
      b_total b' - b_avail b' = b_total b - b_avail b - b2z (parks bid old) + b2z (parks bid w)) ->
  CInv (PM.add vid w vm) sm' bm'.
Proof.
  intros (SK & BK & S & B) F SK' BK' Bst HS HB. split; [exact SK'|]. split; [exact BK'|]. unfold find in F. split.
  - intros sid cid cs' L. destruct (HS _ _ _ L) as (cs & L0 & A & U & Q). destruct (S _ _ _ L0) as (_ & U0 & Q0).
    assert (E : forall a, uses_plug bm' sid cid a = uses_plug bm sid cid a) by (intro a; apply h_plug_bst, Bst).
    split; [exact A|]. rewrite !cnt_add, F, (cnt_ext _ _ vm E), !E. lia.
  - intros bid b' Fb. destruct (HB _ _ Fb) as (b & F0 & A & U). destruct (B _ _ F0) as (_ & U0).
    split; [exact A|]. rewrite cnt_add, F. lia.
Qed.

Lemma CInv_same_hold vm sm bm vid old w sm' bm' :
  CInv vm sm bm -> find vid vm = Some old -> hold (v_state w) = hold (v_state old) ->
  skeys sm' -> (forall sid cid, slook sm' sid cid = slook sm sid cid) -> bm' = bm ->
  CInv (PM.add vid w vm) sm' bm'.
Proof.
  intros I F Hh SK' L ->. pose proof I as (_ & BK & S & B).
  apply (CInv_step vm sm bm vid old w sm' bm I F SK' BK (fun _ => eq_refl)); unfold uses_plug, queues, parks; rewrite Hh.
  - intros sid cid cs' L'. rewrite L in L'. exists cs'. destruct (S _ _ _ L') as (A & _). split; [exact L'|lia].
  - intros bid b' Fb. exists b'. destruct (B _ _ Fb) as (A & _). split; [exact Fb|lia].
Qed.
Lemma CInv_maps_same vm sm bm sm' : CInv vm sm bm -> skeys sm' -> (forall sid cid, slook sm' sid cid = slook sm sid cid) -> CInv vm sm' bm.
Proof.
  intros (SK & BK & S & B) SK' L. split; [exact SK'|]. split; [exact BK|]. split; [|exact B].
  intros sid cid cs Lk. rewrite L in Lk. apply S. exact Lk.
Qed.

(* what giving back (sg = 1) or checking out (sg = -1) the holdings h does to the station counters and to the base stalls *)
Definition s_moved (sg : Z) (bm : pmap Base) (h : Hold) (sm sm' : pmap Station) : Prop :=
  skeys sm' /\ forall sid cid c', slook sm' sid cid = Some c' -> exists c, slook sm sid cid = Some c /\ cs_total c' = cs_total c /\
    cs_avail c' = cs_avail c + sg * b2z (h_plug bm sid cid h) /\ cs_enq c' = cs_enq c - sg * b2z (h_queue sid cid h) /\
    (0 <= cs_avail c -> 0 <= cs_avail c').
Definition b_moved (sg : Z) (h : Hold) (bm bm' : pmap Base) : Prop :=
  bkeys bm' /\ (forall x, bst bm' x = bst bm x) /\ forall bid b', find bid bm' = Some b' -> exists b, find bid bm = Some b /\
    b_total b' = b_total b /\ b_avail b' = b_avail b + sg * b2z (h_stall bid h) /\ (0 <= b_avail b -> 0 <= b_avail b').
Lemma s_moved_none sg bm h sm : skeys sm -> (forall sid cid, h_plug bm sid cid h = false) -> (forall sid cid, h_queue sid cid h = false) ->
  s_moved sg bm h sm sm.
Proof. intros SK P Q. split; [exact SK|]. intros sid cid c L. exists c. rewrite P, Q. cbn [b2z]. split; [exact L|lia]. Qed.
Lemma b_moved_none sg h bm : bkeys bm -> (forall bid, h_stall bid h = false) -> b_moved sg h bm bm.
Proof. intros BK P. split; [exact BK|]. split; [reflexivity|]. intros bid b F. exists b. rewrite P. cbn [b2z]. split; [exact F|lia]. Qed.

(* a vehicle gives back what its old record holds and checks out what its new record holds *)
Lemma CInv_trade vm sm bm vid old w sm1 bm1 sm2 bm2 :
  CInv vm sm bm -> find vid vm = Some old ->
  s_moved 1 bm (hold (v_state old)) sm sm1 -> b_moved 1 (hold (v_state old)) bm bm1 ->
  s_moved (-1) bm1 (hold (v_state w)) sm1 sm2 -> b_moved (-1) (hold (v_state w)) bm1 bm2 ->
  CInv (PM.add vid w vm) sm2 bm2.
Proof.
  intros I F (_ & S1) (_ & E1 & B1) (SK2 & S2) (BK2 & E2 & B2). pose proof I as (_ & _ & S & B).
  apply (CInv_step vm sm bm vid old w sm2 bm2 I F SK2 BK2); unfold uses_plug, queues, parks.
  - intro x. rewrite E2. apply E1.
  - intros sid cid c2 L2. destruct (S2 _ _ _ L2) as (c1 & L1 & T2 & A2 & Q2 & N2). destruct (S1 _ _ _ L1) as (c & L & T1 & A1 & Q1 & N1).
    rewrite (h_plug_bst bm bm1 sid cid _ E1) in A2. destruct (S _ _ _ L) as (A0 & _). exists c. split; [exact L|lia].
  - intros bid b2 F2. destruct (B2 _ _ F2) as (b1 & F1 & T2 & A2 & N2). destruct (B1 _ _ F1) as (b & F0 & T1 & A1 & N1).
    destruct (B _ _ F0) as (A0 & _). exists b. split; [exact F0|lia].
Qed.

Lemma skeys_add sm st : skeys sm -> skeys (PM.add (s_id st) st sm).
Proof. apply (keyed_add s_id). Qed.
Lemma bkeys_add bm b : bkeys bm -> bkeys (PM.add (b_id b) b bm).
Proof. apply (keyed_add b_id). Qed.
Lemma slook_add_same sm sid0 stn stn' sid cid : find sid0 sm = Some stn -> s_state stn' = s_state stn ->
  slook (PM.add sid0 stn' sm) sid cid = slook sm sid cid.
Proof. intros F E. unfold slook. rewrite find_add. destruct (Pos.eqb_spec sid sid0) as [->|N]; [rewrite F, E|]; reflexivity. Qed.
Lemma slook_add_cs sm sid0 stn cid0 u sid cid : find sid0 sm = Some stn ->
  slook (PM.add sid0 (stn <| s_state := PM.add cid0 u (s_state stn) |>) sm) sid cid =
  if Pos.eqb sid0 sid && Pos.eqb cid0 cid then Some u else slook sm sid cid.
Proof.
  intros F. unfold slook. rewrite find_add, (Pos.eqb_sym sid sid0). destruct (Pos.eqb_spec sid0 sid) as [<-|N]; cbn [andb]; [|reflexivity].
  rewrite F. cbn. rewrite find_add, (Pos.eqb_sym cid cid0). reflexivity.
Qed.

(* both station updaters leave a station without the plug type alone and otherwise replace the plug type's counters by the operation's answer *)
Definition station_updated (stn : Station) (cid : id) (op : ChargerState -> res ChargerState) (stn' : Station) : Prop :=
  (find cid (s_state stn) = None /\ stn' = stn) \/
  exists cs u, find cid (s_state stn) = Some cs /\ op cs = Ok u /\ stn' = stn <| s_state := PM.add cid u (s_state stn) |>.
Lemma station_state_update_cases stn cid op stn' : station_state_update stn cid op = Ok stn' -> station_updated stn cid op stn'.
Proof.
  unfold station_state_update. destruct (find cid (s_state stn)) as [cs|] eqn:Fc; [|intro H; inv H; left; auto].
  destruct (op cs) as [u| |] eqn:Eo; intro H; inv H. right. exists cs, u. auto.
Qed.
Lemma station_state_optional_update_cases stn cid op stn' : station_state_optional_update stn cid op = Ok stn' -> station_updated stn cid op stn'.
Proof.
  unfold station_state_optional_update. destruct (find cid (s_state stn)) as [cs|] eqn:Fc; [|intro H; inv H; left; auto].
  destruct (op cs) as [u| |] eqn:Eo; intro H; inv H. right. exists cs, u. auto.
Qed.

Definition counter_move (da dq : Z) (op : ChargerState -> res ChargerState) : Prop :=
  forall cs u, op cs = Ok u -> cs_total u = cs_total cs /\ cs_avail u = cs_avail cs + da /\ cs_enq u = cs_enq cs + dq /\
               (0 <= cs_avail cs -> 0 <= cs_avail u).
Lemma station_op_effect (upd : Station -> id -> (ChargerState -> res ChargerState) -> res Station) da dq op sm sid0 stn cid0 stn' :
  (upd = station_state_update \/ upd = station_state_optional_update) -> counter_move da dq op ->
  skeys sm -> find sid0 sm = Some stn -> upd stn cid0 op = Ok stn' ->
  s_id stn' = sid0 /\ s_geoid stn' = s_geoid stn /\
  forall sid cid cs', slook (PM.add sid0 stn' sm) sid cid = Some cs' -> exists cs, slook sm sid cid = Some cs /\
     cs_total cs' = cs_total cs /\ cs_avail cs' = cs_avail cs + da * b2z (Pos.eqb sid0 sid && Pos.eqb cid0 cid) /\
     cs_enq cs' = cs_enq cs + dq * b2z (Pos.eqb sid0 sid && Pos.eqb cid0 cid) /\ (0 <= cs_avail cs -> 0 <= cs_avail cs').
Proof.
  intros Hupd Hop SK F H.
  assert (D : station_updated stn cid0 op stn')
    by (destruct Hupd; subst upd; [apply station_state_update_cases|apply station_state_optional_update_cases]; exact H).
  destruct D as [[Fc ->]|(cs0 & u & Fc & Eo & ->)]; (split; [exact (SK _ _ F)|]); (split; [reflexivity|]); intros sid cid cs' L.
  - rewrite (slook_add_same sm sid0 stn stn sid cid F eq_refl) in L. exists cs'. split; [exact L|].
    destruct (Pos.eqb_spec sid0 sid) as [<-|]; cbn [andb b2z]; [|lia].
    destruct (Pos.eqb_spec cid0 cid) as [<-|]; cbn [b2z]; [|lia]. unfold slook in L. rewrite F in L. congruence.
  - rewrite (slook_add_cs sm sid0 stn cid0 u sid cid F) in L.
    destruct (Pos.eqb_spec sid0 sid) as [<-|]; cbn [andb b2z] in *; [|exists cs'; split; [exact L|lia]].
    destruct (Pos.eqb_spec cid0 cid) as [<-|]; cbn [b2z] in *; [|exists cs'; split; [exact L|lia]].
    inv L. exists cs0. split; [unfold slook; rewrite F; exact Fc|]. destruct (Hop _ _ Eo) as (T & A & Q & NN). lia.
Qed.
Lemma move_return : counter_move 1 0 cs_increment_available.
Proof. intros cs u H. apply (ok_case (cs_increment_available_spec cs)) in H. unfold cs_same_but_counts in H. lia. Qed.
Lemma move_checkout : counter_move (-1) 0 (fun cs => if negb (cs_has_available_charger cs) then Reject else cs_decrement_available cs).
Proof.
  intros cs u H. destruct (negb _); [discriminate|]. apply (ok_case (cs_decrement_available_cases cs)) in H.
  unfold cs_same_but_counts in H. lia.
Qed.
Lemma move_enqueue : counter_move 0 1 (fun cs => Ok (cs_increment_enqueued cs)).
Proof. intros cs u H. inv H. pose proof (cs_increment_enqueued_spec cs) as S. unfold cs_same_but_counts in S. cbv zeta in S. lia. Qed.
Lemma move_dequeue : counter_move 0 (-1) cs_decrement_enqueued.
Proof. intros cs u H. apply (ok_case (cs_decrement_enqueued_cases cs)) in H. unfold cs_same_but_counts in H. lia. Qed.

Lemma add_add_same {A} k (w n : A) : forall m, PM.add k w (PM.add k n m) = PM.add k w m.
Proof. induction k as [k IH|k IH|]; intros [|l o r]; cbn; try rewrite IH; reflexivity. Qed.

Section C.
Variable env : Env.

(* a counter operation at plug type (sid0, cid0), written back: the holdings h it stands for are those whose indicator it moves *)
Lemma station_write_moved sg h upd da dq op s bm sid0 stn cid0 stn' a :
  (upd = station_state_update \/ upd = station_state_optional_update) -> counter_move da dq op ->
  skeys (stations s) -> find sid0 (stations s) = Some stn -> upd stn cid0 op = Ok stn' -> modify_station env s stn' = Ok a ->
  (forall sid cid, sg * b2z (h_plug bm sid cid h) = da * b2z (Pos.eqb sid0 sid && Pos.eqb cid0 cid)) ->
  (forall sid cid, - sg * b2z (h_queue sid cid h) = dq * b2z (Pos.eqb sid0 sid && Pos.eqb cid0 cid)) ->
  s_moved sg bm h (stations s) (stations a) /\ vehicles a = vehicles s /\ bases a = bases s.
Proof.
  intros Hupd Hop SK F U M HP HQ. destruct (station_op_effect upd da dq op _ sid0 stn cid0 stn' Hupd Hop SK F U) as (Hid & _ & Eff).
  apply modify_station_spec in M. destruct M as (_ & Es & Ev & Eb & _). split; [|auto]. rewrite Es. split; [apply skeys_add; exact SK|].
  rewrite Hid. intros sid cid c' L. destruct (Eff _ _ _ L) as (c & L0 & T & A & Q & N). exists c.
  pose proof (HP sid cid). pose proof (HQ sid cid). split; [exact L0|]. split; [exact T|]. split; [lia|]. split; [lia|exact N].
Qed.
(* a stall returned (sg = 1) or checked out (sg = -1) at base bid0, written back *)
Lemma base_write_moved sg h s bid0 b b' a : bkeys (bases s) -> find bid0 (bases s) = Some b ->
  base_same_but_stalls b b' -> b_avail b' = b_avail b + sg -> (0 <= b_avail b -> 0 <= b_avail b') -> modify_base env s b' = Ok a ->
  (forall bid, h_stall bid h = Pos.eqb bid0 bid) ->
  b_moved sg h (bases s) (bases a) /\ vehicles a = vehicles s /\ stations a = stations s.
Proof.
  intros BK F (Hi & _ & _ & Ht & Hs) Ha Hn M HB. apply modify_base_spec in M. destruct M as (_ & Eb & Ev & Es & _). split; [|auto].
  rewrite Eb, Hi, (BK _ _ F). split; [rewrite <- (BK _ _ F), <- Hi; apply bkeys_add; exact BK|]. split.
  - intro x. unfold bst. rewrite find_add. destruct (Pos.eqb_spec x bid0) as [->|N]; [rewrite F; exact Hs|reflexivity].
  - intros bid y' Fy. rewrite find_add, (Pos.eqb_sym bid bid0) in Fy. rewrite HB. destruct (Pos.eqb_spec bid0 bid) as [<-|N]; cbn [b2z].
    + inv Fy. exists b. split; [exact F|lia].
    + exists y'. split; [exact Fy|lia].
Qed.
Lemma return_stall_moved h s bid0 b b' a : bkeys (bases s) -> find bid0 (bases s) = Some b -> base_return_stall b = Ok b' ->
  modify_base env s b' = Ok a -> (forall bid, h_stall bid h = Pos.eqb bid0 bid) ->
  b_moved 1 h (bases s) (bases a) /\ vehicles a = vehicles s /\ stations a = stations s.
Proof.
  intros BK F R M HB. destruct (ok_case (base_return_stall_spec b) R) as (_ & Ha & Hs).
  apply (base_write_moved 1 h s bid0 b b' a BK F Hs); [lia|lia|exact M|exact HB].
Qed.
Lemma checkout_stall_moved h s bid0 b b' a : bkeys (bases s) -> find bid0 (bases s) = Some b -> base_checkout_stall b = Some b' ->
  modify_base env s b' = Ok a -> (forall bid, h_stall bid h = Pos.eqb bid0 bid) ->
  b_moved (-1) h (bases s) (bases a) /\ vehicles a = vehicles s /\ stations a = stations s.
Proof.
  intros BK F R M HB. destruct (some_case (base_checkout_stall_spec b) R) as (H0 & Ha & Hs).
  apply (base_write_moved (-1) h s bid0 b b' a BK F Hs); [lia|lia|exact M|exact HB].
Qed.

(* the state write at the end of an entry, seen from the vehicle map vm the entry started from *)
Lemma anvs_over a vm vid st s' : vkeys a -> vehicles a = vm \/ (exists p, vehicles a = PM.add vid p vm) ->
  apply_new_vehicle_state env a vid st = Ok s' ->
  exists x, vehicles s' = PM.add vid (x <| v_state := st |>) vm /\ stations s' = stations a /\ bases s' = bases a.
Proof.
  intros K Va A. apply apply_new_vehicle_state_spec in A. destruct A as (x & F & V & S & B & _). rewrite (K _ _ F) in V.
  exists x. rewrite V. split; [|auto].
  destruct Va as [->|[p ->]]; [reflexivity|apply add_add_same].
Qed.

Lemma nothing_moved sg h s a : skeys (stations s) -> bkeys (bases s) -> h = H_none -> stations a = stations s -> bases a = bases s ->
  s_moved sg (bases s) h (stations s) (stations a) /\ b_moved sg h (bases s) (bases a).
Proof. intros SK BK -> -> ->. split; [apply s_moved_none|apply b_moved_none]; auto. Qed.
Lemma plug_write_moved sg h upd da dq op s sid0 stn cid0 stn' a :
  (upd = station_state_update \/ upd = station_state_optional_update) -> counter_move da dq op ->
  skeys (stations s) -> bkeys (bases s) -> find sid0 (stations s) = Some stn -> upd stn cid0 op = Ok stn' -> modify_station env s stn' = Ok a ->
  (forall sid cid, sg * b2z (h_plug (bases s) sid cid h) = da * b2z (Pos.eqb sid0 sid && Pos.eqb cid0 cid)) ->
  (forall sid cid, - sg * b2z (h_queue sid cid h) = dq * b2z (Pos.eqb sid0 sid && Pos.eqb cid0 cid)) -> (forall bid, h_stall bid h = false) ->
  vehicles a = vehicles s /\ s_moved sg (bases s) h (stations s) (stations a) /\ b_moved sg h (bases s) (bases a).
Proof.
  intros Hupd Hop SK BK F U M HP HQ HB. destruct (station_write_moved sg h upd da dq op s (bases s) sid0 stn cid0 stn' a Hupd Hop SK F U M HP HQ) as (S & Ev & Eb).
  split; [exact Ev|]. split; [exact S|]. rewrite Eb. apply b_moved_none; assumption.
Qed.
(* a plug reached through base bid, the stall written first: both counters move *)
Lemma base_plug_moved sg bid cid upd op s b sid stn stn' s2 s3 :
  (upd = station_state_update \/ upd = station_state_optional_update) -> counter_move sg 0 op ->
  skeys (stations s) -> find bid (bases s) = Some b -> b_station b = Some sid -> find sid (stations s) = Some stn ->
  b_moved sg (H_base_plug bid cid) (bases s) (bases s2) /\ vehicles s2 = vehicles s /\ stations s2 = stations s ->
  upd stn cid op = Ok stn' -> modify_station env s2 stn' = Ok s3 ->
  vehicles s3 = vehicles s /\ s_moved sg (bases s) (H_base_plug bid cid) (stations s) (stations s3) /\ b_moved sg (H_base_plug bid cid) (bases s) (bases s3).
Proof.
  intros Hupd Hop SK Fb Hs Fs (B & Ev & Es) U M. rewrite <- Es in SK, Fs.
  apply (station_write_moved sg (H_base_plug bid cid) upd sg 0 op s2 (bases s) sid stn cid stn' s3 Hupd Hop SK Fs U) in M.
  - destruct M as (S & Ev3 & Eb). rewrite Es in S. rewrite Eb. split; [congruence|]. split; assumption.
  - intros sd cd. cbn [h_plug]. unfold bst. rewrite Fb, Hs. reflexivity.
  - intros sd cd. cbn [h_queue b2z]. lia.
Qed.

Lemma exit_moved vid st nx s s1 : skeys (stations s) -> bkeys (bases s) -> vs_exit env (vid, st) nx s = Ok s1 ->
  vehicles s1 = vehicles s /\ s_moved 1 (bases s) (hold st) (stations s) (stations s1) /\ b_moved 1 (hold st) (bases s) (bases s1).
Proof.
  intros SK BK X. split; [eapply vs_exit_same; eauto|].
  destruct (exit_cases env _ _ _ _ _ X) as [st Hn _|rid rt r s1 _ M|sid cid stn stn' s1 F R M|sid cid t stn stn' s1 F R M|bid b b' s1 F R M
                                           |bid cid b b' sid stn stn' s2 s1 Fb Hs Fs R Mb C Ms].
  - apply nothing_moved; auto. destruct st; try contradiction; reflexivity.
  - apply modify_request_spec in M. destruct M as (_ & _ & _ & Es & Eb & _). apply nothing_moved; auto.
  - apply (plug_write_moved 1 (H_plug sid cid) station_state_update 1 0 _ s sid stn cid stn' s1 (or_introl eq_refl) move_return SK BK F R M); reflexivity.
  - apply (plug_write_moved 1 (H_queue sid cid) station_state_update 0 (-1) _ s sid stn cid stn' s1 (or_introl eq_refl) move_dequeue SK BK F R M); reflexivity.
  - destruct (return_stall_moved (H_stall bid) s bid b b' s1 BK F R M) as (B & _ & Es); [reflexivity|]. split; [rewrite Es; apply s_moved_none; auto|exact B].
  - apply (base_plug_moved 1 bid cid station_state_update _ s b sid stn stn' s2 s1 (or_introl eq_refl) move_return SK Fb Hs Fs); [|exact C|exact Ms].
    apply (return_stall_moved _ s bid b b' s2 BK Fb R Mb). reflexivity.
Qed.

(* enter: the new activity's holdings are checked out, then the vehicle's state is written; the state written
   is the one asked for, except that a dispatch to the station the vehicle is already at starts charging there *)
Definition enter_counters (vid : id) (s s' : Sim) : Prop :=
  exists x st, vehicles s' = PM.add vid (x <| v_state := st |>) (vehicles s) /\
    s_moved (-1) (bases s) (hold st) (stations s) (stations s') /\ b_moved (-1) (hold st) (bases s) (bases s').
(* the counters are moved on the way to a, where the state is written *)
Lemma enter_counters_intro vid s a st s' : vkeys a -> apply_new_vehicle_state env a vid st = Ok s' ->
  (vehicles a = vehicles s \/ exists p, vehicles a = PM.add vid p (vehicles s)) /\
  s_moved (-1) (bases s) (hold st) (stations s) (stations a) /\ b_moved (-1) (hold st) (bases s) (bases a) ->
  enter_counters vid s s'.
Proof.
  intros Ka A (Va & HS & HB). destruct (anvs_over a _ vid st s' Ka Va A) as (x & V & S & B). exists x, st. rewrite S, B. auto.
Qed.
Lemma enter_moved vid nx s s' : vkeys s -> skeys (stations s) -> bkeys (bases s) -> vs_enter env (vid, nx) s = Ok s' -> enter_counters vid s s'.
Proof.
  intros K SK BK N.
  destruct (enter_cases env _ _ _ _ N) as [nx s' P A|rid rt r s1 s' _ M A|q d rt s1 s' P A|nx sid cid stn stn' s1 s' _ F C M A|sid cid t stn stn' s1 s' F Q M A
                                          |bid b b' s1 s' F C M A|bid cid b b' sid stn stn' s2 s3 s' Fb Hs Fs C Cc Mb Ms A].
  - apply (enter_counters_intro vid s s nx s' K A). split; [left; reflexivity|]. apply nothing_moved; auto. destruct nx; try contradiction; reflexivity.
  - apply modify_request_spec in M. destruct M as (_ & _ & Ev & Es & Eb & _).
    apply (enter_counters_intro vid s s1 _ s' (vkeys_of_same _ _ Ev K) A). split; [left; exact Ev|]. apply nothing_moved; auto.
  - apply pick_up_trip_spec in P. destruct P as (pv & pr & Fpv & _ & Ev & _ & _ & Es & Eb). rewrite (K _ _ Fpv) in Ev.
    apply (enter_counters_intro vid s s1 (ServicingTrip q d rt) s'); [|exact A|split; [right; eexists; exact Ev|apply nothing_moved; auto]].
    unfold vkeys. rewrite Ev, <- (K _ _ Fpv). apply (keyed_add v_id (vehicles s) (veh_receive_payment pv (r_value pr))). exact K.
  - destruct (plug_write_moved (-1) (H_plug sid cid) station_state_optional_update (-1) 0 _ s sid stn cid stn' s1 (or_intror eq_refl) move_checkout SK BK F C M)
      as (Ev & SB); try reflexivity.
    apply (enter_counters_intro vid s s1 _ s' (vkeys_of_same _ _ Ev K) A). auto.
  - destruct (plug_write_moved (-1) (H_queue sid cid) station_state_update 0 1 _ s sid stn cid stn' s1 (or_introl eq_refl) move_enqueue SK BK F Q M)
      as (Ev & SB); try reflexivity.
    apply (enter_counters_intro vid s s1 _ s' (vkeys_of_same _ _ Ev K) A). auto.
  - destruct (checkout_stall_moved (H_stall bid) s bid b b' s1 BK F C M) as (B & Ev & Es); [reflexivity|].
    apply (enter_counters_intro vid s s1 _ s' (vkeys_of_same _ _ Ev K) A). split; [left; exact Ev|]. split; [rewrite Es; apply s_moved_none; auto|exact B].
  - destruct (base_plug_moved (-1) bid cid station_state_optional_update _ s b sid stn stn' s2 s3 (or_intror eq_refl) move_checkout SK Fb Hs Fs) as (Ev & SB);
      [apply (checkout_stall_moved _ s bid b b' s2 BK Fb C Mb); reflexivity|exact Cc|exact Ms|].
    apply (enter_counters_intro vid s s3 _ s' (vkeys_of_same _ _ Ev K) A). auto.
Qed.

Lemma transition_counts s vid st nx s' : Inv_counts s -> vkeys s -> vstate_of s vid = Some st ->
  transition env s (vid, st) (vid, nx) = Ok s' -> Inv_counts s'.
Proof.
  intros I K Hst T. apply vstate_of_Some in Hst. destruct Hst as (v & Fv & <-). pose proof I as (SK & BK & _).
  apply transition_ok_iff in T. destruct T as (s1 & X & N). destruct (exit_moved _ _ _ _ _ SK BK X) as (V1 & S1 & B1).
  destruct (enter_moved vid nx s1 s') as (x & st' & V & S2 & B2); [eapply vkeys_of_same; eauto|apply S1|apply B1|exact N|].
  unfold Inv_counts. rewrite V, V1. exact (CInv_trade _ _ _ vid v (x <| v_state := st' |>) _ _ _ _ I Fv S1 B1 S2 B2).
Qed.

Lemma hold_update_route st r : hold (update_route st r) = hold st.
Proof. destruct st; reflexivity. Qed.

Lemma modv_counts s old w s' : Inv_counts s -> find (v_id w) (vehicles s) = Some old ->
  hold (v_state w) = hold (v_state old) -> modify_vehicle env s w = Ok s' -> Inv_counts s'.
Proof.
  intros I F Hh M. apply modify_vehicle_spec in M. destruct M as (_ & V & S & B & _).
  unfold Inv_counts. rewrite V, S, B. apply (CInv_same_hold _ _ _ _ old _ _ _ I F Hh); [apply I|reflexivity|reflexivity].
Qed.

Lemma go_out_of_service_counts s vid v s' : Inv_counts s -> vkeys s -> find vid (vehicles s) = Some v -> hold (v_state v) = H_none ->
  go_out_of_service_on_empty env s vid = Ok s' -> Inv_counts s'.
Proof.
  intros I K Fv Hh H. destruct (go_out_cases env _ _ _ _ Fv H) as (s1 & X & A). pose proof I as (SK & BK & _).
  assert (M : vehicles s1 = vehicles s /\ s_moved 1 (bases s) (hold (v_state v)) (stations s) (stations s1) /\
              b_moved 1 (hold (v_state v)) (bases s) (bases s1)).
  { destruct X as [X| ->]; [eapply exit_moved; eauto|]. split; [reflexivity|apply nothing_moved; auto]. }
  destruct M as (V1 & S1 & B1).
  destruct (anvs_over s1 (vehicles s) vid OutOfService s') as (x & V & S & B); [eapply vkeys_of_same; eauto|left; exact V1|exact A|].
  unfold Inv_counts. rewrite V, S, B.
  apply (CInv_trade _ _ _ vid v (x <| v_state := OutOfService |>) _ _ _ _ I Fv S1 B1); [apply s_moved_none|apply b_moved_none]; auto; [apply S1|apply B1].
Qed.

Lemma move_counts s vid s' : Inv_counts s -> vkeys s -> move env s vid = Ok s' -> Inv_counts s'.
Proof.
  intros I K H. destruct (move_cases env _ _ _ H) as (v & m & route & tr & Fv & _ & Sr & _ & [(_ & M)|[(_ & G)|(e0 & w & _ & _ & L)]]).
  - eapply (modv_counts s v _ s' I); [| |exact M]; [cbn; rewrite (K _ _ Fv); exact Fv|apply hold_update_route].
  - eapply go_out_of_service_counts; eauto. destruct (v_state v); try discriminate Sr; reflexivity.
  - destruct L as (Ew & M). destruct (moved_fields _ _ _ _ _ _ _ Ew) as (Hid & Hs & _).
    eapply (modv_counts (emit s _) v w s' I); [rewrite Hid, (K _ _ Fv); exact Fv|rewrite Hs; apply hold_update_route|exact M].
Qed.

Lemma charge_counts s vid sid cid s' : Inv_counts s -> vkeys s -> charge env s vid sid cid = Ok s' -> Inv_counts s'.
Proof.
  intros I K H. destruct (charge_ledger env s vid sid cid s' H) as (v & st & m & c & v1 & Fv & Fs & _ & _ & Ev1 & L).
  cbv zeta in L. destruct L as (V & S & _ & _ & B). unfold Inv_counts. rewrite V, S, B. pose proof I as (SK & _).
  destruct (mech_add_energy_frame m v c (dt s)) as (Hid & _ & _ & _ & _ & Hst & _). rewrite <- Ev1 in Hid, Hst.
  apply (CInv_same_hold _ _ _ _ v _ _ _ I); [| |apply skeys_add; exact SK| |reflexivity].
  - cbn. rewrite Hid, (K _ _ Fv). exact Fv.
  - cbn. rewrite Hst. reflexivity.
  - intros sd cd. apply (slook_add_same _ _ st); [|destruct (c_etype c); reflexivity].
    rewrite (proj1 (charged_station_sim st _ _ _)), (SK _ _ Fs). exact Fs.
Qed.

Lemma perform_counts s vid st s' : Inv_counts s -> vkeys s -> vstate_of s vid = Some st -> perform_update env vid st s = Ok s' -> Inv_counts s'.
Proof.
  intros I K Hst H. apply vstate_of_Some in Hst. destruct Hst as (v & Fv & Est). pose proof (K _ _ Fv) as Hid.
  (* idling rewrites the vehicle's own record and keeps what it holds *)
  assert (Idl : forall m w, hold (v_state w) = hold (v_state (mech_idle m v (dt s))) -> v_id w = v_id (mech_idle m v (dt s)) ->
                  modify_vehicle env s w = Ok s' -> Inv_counts s').
  { intros m w Hw Ew. destruct (mech_idle_frame m v (dt s)) as (Ei & _ & _ & _ & _ & Es & _).
    apply (modv_counts s v w s' I); [rewrite Ew, Ei, Hid; exact Fv|rewrite Hw, Es; reflexivity]. }
  destruct st; cbn [perform_update] in H; try (eapply move_counts; eauto; fail); try (inv H; exact I).
  - rewrite Fv in H. dmatch H. eapply (Idl m); [| |exact H]; [|reflexivity].
    destruct (mech_idle_frame m v (dt s)) as (_ & _ & _ & _ & _ & Es & _). cbn. rewrite Es, Est. reflexivity.
  - destruct (servicing_update_cases env s vid req departure route s' H) as (a & M & [->|(w & q' & d' & g & t & _ & _ & ->)]); exact (move_counts s vid a I K M).
  - apply charge_unless_full_cases in H. destruct H as [->|H]; [exact I|eapply charge_counts; eauto].
  - rewrite Fv in H. dmatch H. exact (Idl m _ eq_refl eq_refl H).
  - repeat dmatch H. eapply charge_counts; eauto.
Qed.

Lemma Inv_counts_ext s s' : vehicles s' = vehicles s -> stations s' = stations s -> bases s' = bases s -> Inv_counts s -> Inv_counts s'.
Proof. unfold Inv_counts. intros -> -> ->. auto. Qed.

Lemma cancel_counts s rid : Inv_counts s -> Inv_counts (cancel_one env s rid).
Proof.
  intro I. destruct (cancel_one_cases env s rid) as [->|(r & a & _ & _ & R & ->)]; [exact I|].
  apply remove_request_spec in R. destruct R as (_ & V & S & B & _). exact (Inv_counts_ext s _ V S B I).
Qed.
Lemma admit_counts s r : Inv_counts s -> Inv_counts (admit_request env s r).
Proof.
  intro I. destruct (admit_request_cases env s r) as [->|(a & E & ->)]; [exact I|].
  apply add_request_spec in E. destruct E as (_ & V & S & B & _). exact (Inv_counts_ext s _ V S B I).
Qed.

(* prices: only cs_price moves *)
Lemma station_update_prices_counts prices : forall st cid cs',
  find cid (s_state (station_update_prices st prices)) = Some cs' ->
  exists cs, find cid (s_state st) = Some cs /\ cs_total cs' = cs_total cs /\ cs_avail cs' = cs_avail cs /\ cs_enq cs' = cs_enq cs.
Proof.
  unfold station_update_prices. induction prices as [|cp ps IH]; intros st cid cs' F; cbn [fold_left] in F; [eauto|].
  apply IH in F. destruct F as (c1 & F1 & Q1). destruct (find (fst cp) (s_state st)) as [c0|] eqn:F0; [|eauto].
  cbn in F1. rewrite find_add in F1. destruct (Pos.eqb_spec cid (fst cp)) as [->|N]; [|eauto].
  inv F1. exists c0. split; [exact F0|exact Q1].
Qed.
Lemma price_counts s sid prices : Inv_counts s -> Inv_counts (update_station_prices env s sid prices).
Proof.
  intro I. destruct (update_station_prices_cases env s sid prices) as [->|(st & Fs & M)]; [exact I|].
  apply modify_station_spec in M. destruct M as (_ & S' & V' & B' & _). pose proof I as (SK & BK & S & B).
  unfold Inv_counts. rewrite S', V', B'. split; [apply skeys_add; exact SK|]. split; [exact BK|]. split; [|exact B].
  rewrite (proj1 (station_update_prices_sim prices st)), (SK _ _ Fs).
  intros sd cd cs' L. unfold slook in L. rewrite find_add in L. destruct (Pos.eqb_spec sd sid) as [->|N]; [|exact (S _ _ _ L)].
  apply station_update_prices_counts in L. destruct L as (cs & Fc & T & A & Q).
  assert (L0 : slook (stations s) sid cd = Some cs) by (unfold slook; rewrite Fs; exact Fc).
  rewrite T, A, Q. exact (S _ _ _ L0).
Qed.
Lemma driver_counts rt s v s' : vkeys s -> Inv_counts s -> driver_update env rt s v = Ok s' -> Inv_counts s'.
Proof.
  intros K I H. destruct (driver_update_cases env _ _ _ _ H) as [->|(o & cur & dr & F & M)]; [exact I|].
  eapply (modv_counts (emit s _) cur _ s' I); [| |exact M]; [cbn; rewrite (K _ _ F); exact F|reflexivity].
Qed.

Lemma mstep_counts s s' : vkeys s -> Inv_counts s -> MStep env s s' -> Inv_counts s'.
Proof.
  apply (mstep_cases env Inv_counts).
  - intros; eapply transition_counts; eauto.
  - intros; eapply perform_counts; eauto.
  - intros; apply cancel_counts; assumption.
  - intros; apply admit_counts; assumption.
  - intros; apply price_counts; assumption.
  - intros; eapply driver_counts; eauto.
  - intros a b (V & S & B & _) _. apply Inv_counts_ext; assumption.
  - intros a Ia. exact Ia.
Qed.

(* C02 over every finite history of step operations, for instructions of any controller *)
Theorem counts_invariant ops : forall s0, vkeys s0 -> Inv_counts s0 -> Forall op_ok ops ->
  vkeys (fold_left (step_op env) ops s0) /\ Inv_counts (fold_left (step_op env) ops s0).
Proof. apply (history_invariant env Inv_counts). intros s s' K I M. eapply mstep_counts; eauto. Qed.

(* the loaded initial state: nobody holds anything, every plug and stall is free, nobody waits *)
Lemma Inv_counts_initial s : skeys (stations s) -> bkeys (bases s) ->
  (forall k v, find k (vehicles s) = Some v -> hold (v_state v) = H_none) ->
  (forall sid cid cs, slook (stations s) sid cid = Some cs -> 0 <= cs_total cs /\ cs_avail cs = cs_total cs /\ cs_enq cs = 0) ->
  (forall bid b, find bid (bases s) = Some b -> 0 <= b_total b /\ b_avail b = b_total b) ->
  Inv_counts s.
Proof.
  intros SK BK HV HS HB. split; [exact SK|]. split; [exact BK|]. split.
  - intros sid cid cs L. destruct (HS _ _ _ L) as (T & A & Q).
    rewrite (cnt_zero (uses_plug (bases s) sid cid)), (cnt_zero (queues sid cid)).
    + lia.
    + intros k a F. unfold queues. rewrite (HV k a F). reflexivity.
    + intros k a F. unfold uses_plug. rewrite (HV k a F). reflexivity.
  - intros bid b F. destruct (HB _ _ F) as (T & A). rewrite (cnt_zero (parks bid)); [lia|].
    intros k a Fa. unfold parks. rewrite (HV k a Fa). reflexivity.
Qed.
End C.
