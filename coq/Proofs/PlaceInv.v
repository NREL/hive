(* Proofs/PlaceInv.v — C07 (first sentence) and C10 (first sentence) as ONE state invariant over whole histories: every vehicle
   that is charging or queueing at a station is at that station's location, every vehicle parked or charging at a base is at
   that base's location, and every entity the vehicle's current activity names (station, base, the station behind the base,
   the request it is assigned to, the request it carries) grants access to the vehicle's membership.
   The first half of the file is shared with RouteInv.v: what a step leaves of stations, bases and requests (`sframe`, `rframe`),
   and the preservation, along every macro step but a transition and a move, of any per-vehicle predicate that reads the
   state only through these frames. *)
From Hive.Base Require Import Prelude.
From Hive.Model Require Import Types KernelBase SimOps States Step.
From Hive.Gen Require Import Kernels.
From Hive.Proofs Require Import SimFacts Writes Energy VehFrame Atomic Trip Move Macro Guards CountInv DispInv.

(* every entry of m has a successor under the same key in m', related to it by sim *)
Definition mframe {X} (sim : X -> X -> Prop) (m m' : pmap X) : Prop :=
  forall k x, find k m = Some x -> exists x', find k m' = Some x' /\ sim x' x.
Lemma mframe_refl {X} (sim : X -> X -> Prop) m : (forall x, sim x x) -> mframe sim m m.
Proof. intros Rf k x F. eauto. Qed.
Lemma mframe_trans {X} (sim : X -> X -> Prop) a b c : (forall x y z, sim x y -> sim y z -> sim x z) ->
  mframe sim a b -> mframe sim b c -> mframe sim a c.
Proof. intros Tr F1 F2 k x F. destruct (F1 _ _ F) as (y & Fy & Sy). destruct (F2 _ _ Fy) as (z & Fz & Sz). eauto. Qed.
Lemma mframe_write {X} (key : X -> id) (sim : X -> X -> Prop) m m' : (forall x, sim x x) -> (forall x y, sim x y -> key x = key y) -> keyed key m ->
  m' = m \/ (exists k old x, find k m = Some old /\ sim x old /\ m' = PM.add (key x) x m) -> mframe sim m m' /\ keyed key m'.
Proof.
  intros Rf Hk K [->|(k & old & x & F & Sim & ->)]; [split; [apply mframe_refl; exact Rf|exact K]|].
  split; [|apply keyed_add; exact K]. intros j y Fy. rewrite find_add, (Hk _ _ Sim), (K _ _ F).
  destruct (Pos.eqb_spec j k) as [->|_]; [|eauto]. rewrite F in Fy. inv Fy. eauto.
Qed.

Lemma ssim_trans x y z : ssim x y -> ssim y z -> ssim x z.
Proof. intros (? & ? & ?) (? & ? & ?). repeat split; congruence. Qed.
Lemma bsim_trans x y z : bsim x y -> bsim y z -> bsim x z.
Proof. intros (? & ? & ? & ?) (? & ? & ? & ?). repeat split; congruence. Qed.

Definition sframe (s s' : Sim) : Prop := mframe ssim (stations s) (stations s') /\ mframe bsim (bases s) (bases s').
(* a request of s' that names a vehicle other than `but` is a request of s naming it, with the same membership *)
Definition rframe (but : option id) (s s' : Sim) : Prop :=
  forall rid q' u, find rid (requests s') = Some q' -> r_disp q' = Some u -> Some u <> but ->
    exists q, find rid (requests s) = Some q /\ r_disp q = Some u /\ r_mem q = r_mem q' /\ r_pos q = r_pos q'.

Lemma sframe_same s s' : stations s' = stations s -> bases s' = bases s -> sframe s s'.
Proof. intros S B. unfold sframe. rewrite S, B. split; apply mframe_refl; [exact ssim_refl|exact bsim_refl]. Qed.
Lemma sframe_trans a b c : sframe a b -> sframe b c -> sframe a c.
Proof. intros [S1 B1] [S2 B2]. split; [exact (mframe_trans ssim _ _ _ ssim_trans S1 S2)|exact (mframe_trans bsim _ _ _ bsim_trans B1 B2)]. Qed.
Lemma station_kept s s' sid x : sframe s s' -> find sid (stations s) = Some x ->
  exists x', find sid (stations s') = Some x' /\ s_geoid x' = s_geoid x /\ s_mem x' = s_mem x.
Proof. intros [FS _] F. destruct (FS _ _ F) as (x' & F' & _ & P & M). exists x'. repeat split; try assumption. exact (f_equal p_geoid P). Qed.
Lemma base_kept s s' bid b : sframe s s' -> find bid (bases s) = Some b ->
  exists b', find bid (bases s') = Some b' /\ b_geoid b' = b_geoid b /\ b_mem b' = b_mem b /\ b_station b' = b_station b.
Proof. intros [_ FB] F. destruct (FB _ _ F) as (b' & F' & _ & P & M & T). exists b'. repeat split; try assumption. exact (f_equal p_geoid P). Qed.

Lemma rframe_same but s s' : requests s' = requests s -> rframe but s s'.
Proof. intros R rid q u F D _. rewrite R in F. eauto. Qed.
Lemma rframe_sub but s s' : rsub s s' -> rframe but s s'.
Proof. intros Sub rid q u F D _. exists q. auto. Qed.
Lemma rframe_trans but a b c : rframe but a b -> rframe but b c -> rframe but a c.
Proof.
  intros R1 R2 rid q u F D N. destruct (R2 _ _ _ F D N) as (q1 & F1 & D1 & M1 & P1). destruct (R1 _ _ _ F1 D1 N) as (q0 & F0 & D0 & M0 & P0).
  exists q0. repeat split; congruence.
Qed.
Lemma rframe_weaken s s' but : rframe None s s' -> rframe but s s'.
Proof. intros R rid q u F D _. apply (R rid q u F D). discriminate. Qed.

Section Frames.
Variable env : Env.

Theorem Writes_sframe V E A T s s' : Writes env V E A T s s' -> skeys (stations s) -> bkeys (bases s) ->
  sframe s s' /\ skeys (stations s') /\ bkeys (bases s').
Proof.
  apply (Writes_lift env V E A T (fun a b => skeys (stations a) -> bkeys (bases a) -> sframe a b /\ skeys (stations b) /\ bkeys (bases b))).
  - intros a SK BK. split; [apply sframe_same; reflexivity|auto].
  - intros a b c R1 R2 SK BK. destruct (R1 SK BK) as (F1 & SK1 & BK1). destruct (R2 SK1 BK1) as (F2 & SK2 & BK2).
    split; [exact (sframe_trans _ _ _ F1 F2)|auto].
  - intros a b W SK BK.
    destruct (mframe_write s_id ssim _ _ ssim_refl (fun x y H => proj1 H) SK (Write_stations _ _ _ _ _ _ _ W)) as [FS SK'].
    destruct (mframe_write b_id bsim _ _ bsim_refl (fun x y H => proj1 H) BK (Write_bases _ _ _ _ _ _ _ W)) as [FB BK'].
    repeat split; assumption.
Qed.

(* requests across exit / enter: exit unassigns, enter assigns to the entering vehicle or picks the request up *)
Lemma exit_rframe vid st nx s s1 : vs_exit env (vid, st) nx s = Ok s1 -> rframe None s s1.
Proof.
  intro X. destruct (exit_effect env _ _ _ _ _ X) as [_ R].
  destruct st; try (apply rframe_same; exact R). destruct (find rid (requests s)) as [r|] eqn:F; [|apply rframe_same; exact R].
  intros k q' u Fq Dq _. rewrite R, find_add in Fq. destruct (Pos.eqb k (r_id r)); [|eauto].
  inv Fq. destruct (unassign_clears r) as [C _]. congruence.
Qed.
Lemma enter_rframe vid nx s1 s' : vkeys s1 -> vs_enter env (vid, nx) s1 = Ok s' -> rframe (Some vid) s1 s'.
Proof.
  intros K N. destruct (enter_effect env vid nx s1 s' K N) as (v' & Fv' & [(rid & route & r & St & Fr & Rq)|[NG Sub]]); [|apply rframe_sub; exact Sub].
  intros k q' u Fq Dq Nu. rewrite Rq, find_add in Fq. destruct (Pos.eqb k (r_id r)); [|eauto].
  inv Fq. destruct (assign_sets r vid (sim_time s1)) as [A _]. congruence.
Qed.

(* a transition, once: the exit leaves s1, from which the vehicle enters; its guard was checked in s1; it keeps membership and
   place, and is in the instructed activity, or (DispatchStation at the station already) in one without a route *)
Lemma transition_enter s vid st nx s' : vkeys s -> skeys (stations s) -> bkeys (bases s) -> transition env s (vid, st) (vid, nx) = Ok s' ->
  rframe (Some vid) s s' /\
  exists s1 v st' w, vs_enter env (vid, nx) s1 = Ok s' /\ vkeys s1 /\ sframe s1 s' /\ find vid (vehicles s) = Some v /\ guard s1 v st' /\
    find vid (vehicles s') = Some w /\ v_state w = st' /\ v_mem w = v_mem v /\ v_pos w = v_pos v /\ v_id w = v_id v /\
    (st' = nx \/ state_route st' = None).
Proof.
  intros K SK BK T. apply transition_ok_iff in T. destruct T as (s1 & X & N).
  pose proof (vs_exit_same env _ _ _ _ X) as V1. pose proof (vkeys_of_same _ _ V1 K) as K1.
  destruct (Writes_sframe _ _ _ _ _ _ (exit_writes env nothing nothing True (fun _ _ _ => False) _ _ _ _ X) SK BK) as (_ & SK1 & BK1).
  destruct (Writes_sframe _ _ _ _ _ _ (enter_writes env (fun _ => True) nothing True _ _ _ _ (fun _ _ => I) N) SK1 BK1) as (Fr & _).
  split; [exact (rframe_trans _ _ _ _ (rframe_weaken _ _ _ (exit_rframe _ _ _ _ _ X)) (enter_rframe _ _ _ _ K1 N))|].
  destruct (vs_enter_spec env _ _ _ _ N) as (v & st' & w & Fv & G & Alt & Fw & Es & Ei & Em & Ep).
  specialize (Fw vid). rewrite (K1 _ _ Fv), Pos.eqb_refl in Fw. rewrite V1 in Fv.
  exists s1, v, st', w. repeat (split; [assumption|]). destruct Alt as [->|(sid & cid & r & _ & ->)]; auto.
Qed.
End Frames.

Section PerVehicle.
Variable env : Env.
Variable P : Sim -> Vehicle -> Prop.
(* P looks at stations and bases through sframe and at the requests that name the vehicle; of the vehicle it reads identity,
   place, membership and activity; it asks nothing of an idle vehicle or one out of service *)
Hypothesis P_frame : forall but s s' v, sframe s s' -> rframe but s s' -> Some (v_id v) <> but -> P s v -> P s' v.
Hypothesis P_fields : forall s v w, v_id w = v_id v -> v_pos w = v_pos v -> v_mem w = v_mem v -> v_state w = v_state v -> P s v -> P s w.
Hypothesis P_idle : forall s v d, v_state v = Idle d -> P s v.
Hypothesis P_out : forall s v, v_state v = OutOfService -> P s v.

Definition Inv_veh (s : Sim) : Prop :=
  skeys (stations s) /\ bkeys (bases s) /\ forall vid v, find vid (vehicles s) = Some v -> P s v.

Lemma Inv_frame s s' : sframe s s' -> skeys (stations s') -> bkeys (bases s') -> vehicles s' = vehicles s -> rframe None s s' -> Inv_veh s -> Inv_veh s'.
Proof.
  intros Fr SK' BK' V Rf (_ & _ & J). split; [exact SK'|]. split; [exact BK'|]. intros k u Fu. rewrite V in Fu.
  apply (P_frame None s s' u Fr Rf); [discriminate|exact (J _ _ Fu)].
Qed.
Lemma Inv_ext s s' : vehicles s' = vehicles s -> stations s' = stations s -> bases s' = bases s -> rframe None s s' -> Inv_veh s -> Inv_veh s'.
Proof.
  intros V S B Rf J. pose proof J as (SK & BK & _).
  apply (Inv_frame s s' (sframe_same _ _ S B)); [rewrite S; exact SK|rewrite B; exact BK|exact V|exact Rf|exact J].
Qed.
(* vehicle vid written: everybody else by the frames *)
Lemma Inv_step s s' vid : Inv_veh s -> vkeys s -> sframe s s' -> skeys (stations s') -> bkeys (bases s') -> rframe (Some vid) s s' ->
  (forall k, k <> vid -> find k (vehicles s') = find k (vehicles s)) -> (forall w, find vid (vehicles s') = Some w -> P s' w) -> Inv_veh s'.
Proof.
  intros (_ & _ & J) K Fr SK' BK' Rf Oth Me. split; [exact SK'|]. split; [exact BK'|]. intros k u Fu.
  destruct (Pos.eq_dec k vid) as [->|N]; [apply Me; exact Fu|]. rewrite Oth in Fu by exact N.
  apply (P_frame (Some vid) s s' u Fr Rf); [rewrite (K _ _ Fu); congruence|exact (J _ _ Fu)].
Qed.
Lemma Inv_writes vid E A T s s' : Writes env (on vid) E A T s s' -> Inv_veh s -> vkeys s -> rframe (Some vid) s s' ->
  (forall w, find vid (vehicles s') = Some w -> P s' w) -> Inv_veh s'.
Proof.
  intros W J K Rf Me. pose proof J as (SK & BK & _). destruct (Writes_sframe env _ _ _ _ _ _ W SK BK) as (Fr & SK' & BK').
  destruct (Writes_vonly env _ _ _ _ _ _ W K) as [_ Oth]. exact (Inv_step s s' vid J K Fr SK' BK' Rf Oth Me).
Qed.
(* ... and no request assigned: what held of the old record in s holds of it in s' *)
Lemma Inv_own vid v E A T s s' : Writes env (on vid) E A T s s' -> rframe None s s' -> Inv_veh s -> vkeys s -> find vid (vehicles s) = Some v ->
  (forall w, find vid (vehicles s') = Some w -> P s' v -> P s' w) -> Inv_veh s'.
Proof.
  intros W Rf J K Fv Me. apply (Inv_writes vid E A T s s' W J K (rframe_weaken _ _ _ Rf)). intros w Fw. apply (Me w Fw).
  pose proof J as (SK & BK & Jv). destruct (Writes_sframe env _ _ _ _ _ _ W SK BK) as (Fr & _).
  apply (P_frame None s s' v Fr Rf); [discriminate|exact (Jv _ _ Fv)].
Qed.
Lemma Inv_modv s w s' : Inv_veh s -> vkeys s -> modify_vehicle env s w = Ok s' -> P s w -> Inv_veh s'.
Proof.
  intros J K M Pw. destruct (modify_vehicle_spec env _ _ _ M) as (_ & V & S & B & R & _). pose proof J as (SK & BK & _).
  apply (Inv_step s s' (v_id w) J K (sframe_same _ _ S B)); [rewrite S; exact SK|rewrite B; exact BK|apply rframe_same; exact R| |].
  - exact (proj2 (vonly_modv env (v_id w) s w s' M eq_refl K)).
  - intros w0 Fw. rewrite V, find_add, Pos.eqb_refl in Fw. inv Fw.
    apply (P_frame None s s' w0 (sframe_same _ _ S B) (rframe_same _ _ _ R)); [discriminate|exact Pw].
Qed.

Lemma go_out_inv s vid v s' : Inv_veh s -> vkeys s -> find vid (vehicles s) = Some v -> go_out_of_service_on_empty env s vid = Ok s' -> Inv_veh s'.
Proof.
  intros J K Fv H. destruct (go_out_cases env s vid v s' Fv H) as (s1 & X & A).
  assert (V1 : vehicles s1 = vehicles s) by (destruct X as [X| ->]; [exact (vs_exit_same env _ _ _ _ X)|reflexivity]).
  assert (R1 : rframe None s s1) by (destruct X as [X| ->]; [exact (exit_rframe env _ _ _ _ _ X)|apply rframe_same; reflexivity]).
  apply apply_new_vehicle_state_spec in A. destruct A as (x & Fx & V & _ & _ & R & _). rewrite V1 in Fx, V. rewrite (K _ _ Fx) in V.
  apply (Inv_own vid v nothing nothing True s s' (go_out_writes env _ _ _ _ _ _ H) (rframe_trans _ _ _ _ R1 (rframe_same _ _ _ R)) J K Fv).
  intros w Fw _. rewrite V, find_add, Pos.eqb_refl in Fw. inv Fw. apply P_out. reflexivity.
Qed.
Lemma charge_inv s vid sid cid s' : Inv_veh s -> vkeys s -> charge env s vid sid cid = Ok s' -> Inv_veh s'.
Proof.
  intros J K H. destruct (charge_ledger env s vid sid cid s' H) as (v & st & m & c & v1 & Fv & _ & _ & _ & Ev1 & L).
  cbv zeta in L. destruct L as (V & _ & _ & R & _).
  destruct (mech_add_energy_frame m v c (dt s)) as (Ei & Ep & Em & _ & _ & Es & _). rewrite <- Ev1 in Ei, Ep, Em, Es.
  assert (E1 : forall p, v_id (veh_send_payment v1 p) = vid) by (intro p; rewrite <- (K _ _ Fv); exact Ei). rewrite E1 in V.
  apply (Inv_own vid v (fun _ => True) nothing True s s' (charge_writes env _ _ _ _ _ _ _ _ (fun _ _ _ _ => I) H) (rframe_same _ _ _ R) J K Fv).
  intros w Fw. rewrite V, find_add, Pos.eqb_refl in Fw. inv Fw. apply P_fields; [exact Ei|exact Ep|exact Em|exact Es].
Qed.

Lemma perform_inv s vid st s' : (forall a, move env s vid = Ok a -> Inv_veh a) -> Inv_veh s -> vkeys s -> vstate_of s vid = Some st ->
  perform_update env vid st s = Ok s' -> Inv_veh s'.
Proof.
  intros Mv J K Hst H. apply vstate_of_Some in Hst. destruct Hst as (v & Fv & Est). pose proof J as (_ & _ & Jv).
  destruct st; cbn [perform_update] in H; try (apply Mv; exact H); try (inv H; exact J).
  - rewrite Fv in H. repeat dmatch H. apply (Inv_modv s _ s' J K H). apply (P_idle _ _ (idle_duration + dt s)%Z). reflexivity.
  - destruct (move env s vid) as [a| |] eqn:M; try discriminate. pose proof (Mv a eq_refl) as Ja.
    repeat dmatch H; try (inv H; exact Ja).
    unfold drop_off_trip in H. repeat dmatch H. inv H. apply (Inv_ext a); try reflexivity; [apply rframe_same; reflexivity|exact Ja].
  - apply charge_unless_full_cases in H. destruct H as [->|H]; [exact J|eapply charge_inv; eauto].
  - rewrite Fv in H. repeat dmatch H. apply (Inv_modv s _ s' J K H).
    destruct (mech_idle_frame m v (dt s)) as (Ei & Ep & Em & _ & _ & Es & _). exact (P_fields s v _ Ei Ep Em Es (Jv _ _ Fv)).
  - repeat dmatch H. eapply charge_inv; eauto.
Qed.

Lemma cancel_inv s rid : Inv_veh s -> Inv_veh (cancel_one env s rid).
Proof.
  intro J. destruct (cancel_one_cases env s rid) as [->|(r & a & _ & _ & Rm & ->)]; [exact J|].
  apply remove_request_spec in Rm. destruct Rm as (R & V & S & B & _). apply (Inv_ext s (emit a _) V S B); [|exact J].
  intros k q' u Fq Dq _. cbn in Fq. rewrite R, find_remove in Fq. destruct (Pos.eqb k rid); [discriminate|eauto].
Qed.
Lemma admit_inv s r : r_disp r = None -> Inv_veh s -> Inv_veh (admit_request env s r).
Proof.
  intros D J. destruct (admit_request_cases env s r) as [->|(a & Ad & ->)]; [exact J|].
  apply add_request_spec in Ad. destruct Ad as (R & V & S & B & _). apply (Inv_ext s (emit a _) V S B); [|exact J].
  intros k q' u Fq Dq _. cbn in Fq. rewrite R, find_add in Fq. destruct (Pos.eqb k (r_id r)); [inv Fq; congruence|eauto].
Qed.
Lemma price_inv s sid prices : Inv_veh s -> Inv_veh (update_station_prices env s sid prices).
Proof.
  intro J. destruct (update_station_prices_cases env s sid prices) as [->|(st & Fs & M)]; [exact J|]. pose proof J as (SK & BK & _).
  destruct (modify_station_spec env _ _ _ M) as (_ & _ & V & _ & R & _).
  destruct (Writes_sframe env _ _ _ _ _ _ (mods_writes env nothing nothing True (fun _ _ _ => False) _ _ _ _ _ Fs (station_update_prices_sim prices st) M) SK BK) as (Fr & SK' & BK').
  exact (Inv_frame s _ Fr SK' BK' V (rframe_same _ _ _ R) J).
Qed.
Lemma driver_inv rt s v s' : vkeys s -> Inv_veh s -> driver_update env rt s v = Ok s' -> Inv_veh s'.
Proof.
  intros K J H. destruct (driver_update_cases env rt s v s' H) as [->|(on & cur & dr & F & M)]; [exact J|].
  pose proof (Inv_ext s (emit s (EvSchedule (v_id v) on (sim_time s))) eq_refl eq_refl eq_refl (rframe_same _ _ _ eq_refl) J) as Je.
  apply (Inv_modv _ _ s' Je K M). apply (P_fields _ cur); try reflexivity. destruct Je as (_ & _ & Jv). exact (Jv _ _ F).
Qed.

(* every macro step, given the two steps that depend on what P says *)
Lemma mstep_inv :
  (forall s vid st nx s', vkeys s -> Inv_veh s -> vstate_of s vid = Some st -> sourced env s vid nx -> transition env s (vid, st) (vid, nx) = Ok s' -> Inv_veh s') ->
  (forall s vid s', vkeys s -> Inv_veh s -> move env s vid = Ok s' -> Inv_veh s') ->
  forall s s', vkeys s -> Inv_veh s -> MStep env s s' -> Inv_veh s'.
Proof.
  intros Ht Hm. apply (mstep_cases env Inv_veh Ht).
  - intros s vid st s' K J. exact (perform_inv s vid st s' (fun a => Hm s vid a K J) J K).
  - apply cancel_inv.
  - apply admit_inv.
  - apply price_inv.
  - apply driver_inv.
  - intros s s' (V & S & B & R & _) _. exact (Inv_ext s s' V S B (rframe_same _ _ _ R)).
  - intro s. exact (Inv_ext s (sim_tick s) eq_refl eq_refl eq_refl (rframe_same _ _ _ eq_refl)).
Qed.
End PerVehicle.

Section P.
Variable env : Env.

Definition placed (s : Sim) (v : Vehicle) : Prop :=
  match v_state v with
  | ChargingStation sid _ | ChargeQueueing sid _ _ =>
      exists x, find sid (stations s) = Some x /\ v_geoid v = s_geoid x /\ grants (s_mem x) v
  | ReserveBase bid => exists b, find bid (bases s) = Some b /\ v_geoid v = b_geoid b /\ grants (b_mem b) v
  | ChargingBase bid _ =>
      exists b sid x, find bid (bases s) = Some b /\ b_station b = Some sid /\ find sid (stations s) = Some x /\
                      v_geoid v = b_geoid b /\ grants (b_mem b) v /\ grants (s_mem x) v
  | DispatchStation sid _ _ => exists x, find sid (stations s) = Some x /\ grants (s_mem x) v
  | DispatchBase bid _ => exists b, find bid (bases s) = Some b /\ grants (b_mem b) v
  | DispatchTrip rid _ => forall q, find rid (requests s) = Some q -> r_disp q = Some (v_id v) -> grants (r_mem q) v
  | ServicingTrip q _ _ => grants (r_mem q) v
  | Idle _ | Repositioning _ | OutOfService => True
  end.
Definition Inv_place (s : Sim) : Prop :=
  skeys (stations s) /\ bkeys (bases s) /\ forall vid v, find vid (vehicles s) = Some v -> placed s v.

Lemma placed_frame but s s' v : sframe s s' -> rframe but s s' -> Some (v_id v) <> but -> placed s v -> placed s' v.
Proof.
  intros Fr FR N. unfold placed. destruct (v_state v) eqn:Est; auto.
  - intros P q' Fq Dq. destruct (FR _ _ _ Fq Dq N) as (q & F0 & D0 & M0 & _). rewrite <- M0. eauto.
  - intros (x & F & A). destruct (station_kept _ _ _ _ Fr F) as (x' & F' & Eg & Em). exists x'. rewrite Em. auto.
  - intros (x & F & G & A). destruct (station_kept _ _ _ _ Fr F) as (x' & F' & Eg & Em). exists x'. rewrite Eg, Em. auto.
  - intros (x & F & G & A). destruct (station_kept _ _ _ _ Fr F) as (x' & F' & Eg & Em). exists x'. rewrite Eg, Em. auto.
  - intros (b & F & A). destruct (base_kept _ _ _ _ Fr F) as (b' & F' & Eg & Em & _). exists b'. rewrite Em. auto.
  - intros (b & F & G & A). destruct (base_kept _ _ _ _ Fr F) as (b' & F' & Eg & Em & _). exists b'. rewrite Eg, Em. auto.
  - intros (b & sid & x & F & T & Fx & G & A & A2). destruct (base_kept _ _ _ _ Fr F) as (b' & F' & Eg & Em & Et).
    destruct (station_kept _ _ _ _ Fr Fx) as (x' & Fx' & _ & Em2). exists b', sid, x'. rewrite Eg, Em, Et, Em2. auto 10.
Qed.
Lemma placed_fields s v w : v_id w = v_id v -> v_pos w = v_pos v -> v_mem w = v_mem v -> v_state w = v_state v -> placed s v -> placed s w.
Proof. intros Hi Hp Hm Hs. unfold placed, grants, v_geoid. rewrite Hi, Hp, Hm, Hs. auto. Qed.
Lemma placed_idle s v d : v_state v = Idle d -> placed s v.
Proof. intro E. unfold placed. rewrite E. exact I. Qed.
Lemma placed_out s v : v_state v = OutOfService -> placed s v.
Proof. intro E. unfold placed. rewrite E. exact I. Qed.
(* on the way nothing is asked of the vehicle's place *)
Lemma placed_moved s v w r r' : v_id w = v_id v -> v_mem w = v_mem v -> state_route (v_state v) = Some r ->
  v_state w = update_route (v_state v) r' -> placed s v -> placed s w.
Proof. intros Hi Hm Sr Hs. unfold placed, grants. rewrite Hi, Hm, Hs. destruct (v_state v); cbn in *; try discriminate Sr; auto. Qed.

Lemma guard_placed s v st w : guard s v st -> v_state w = st -> v_mem w = v_mem v -> v_pos w = v_pos v ->
  (forall rid route, st <> DispatchTrip rid route) -> placed s w.
Proof.
  intros G Es Em Ep ND. unfold placed, grants, v_geoid in *. rewrite Es, Em, Ep. destruct st; cbn in G; auto.
  - exfalso. eapply ND; eauto.
  - tauto.
  - destruct G as (x & F & _ & A). eauto.
  - destruct G as (b & F & _ & A). eauto.
Qed.

Lemma transition_place s vid st nx s' : Inv_place s -> vkeys s -> transition env s (vid, st) (vid, nx) = Ok s' -> Inv_place s'.
Proof.
  intros J K T. pose proof J as (SK & BK & _).
  destruct (transition_enter env s vid st nx s' K SK BK T) as (Rf & s1 & v & st' & w & N & K1 & Fr & Fv & G & Fw & Es & Em & Ep & Ei & _).
  apply (Inv_writes env placed placed_frame vid _ _ _ s s' (transition_writes env (fun _ => True) nothing True _ _ _ _ _ (fun _ _ => I) T) J K Rf).
  intros w0 Fw0. rewrite Fw in Fw0. inv Fw0.
  destruct (enter_effect env vid nx s1 s' K1 N) as (v' & Fv' & [(rid & route & r & St & Fr0 & Rq)|[NG Sub]]); rewrite Fw in Fv'; inv Fv'.
  - (* DispatchTrip: the request just assigned is the request the guard was checked against *)
    unfold placed. rewrite St. intros q Fq Dq. rewrite St in G. cbn in G. destruct G as (q0 & F0 & _ & A). rewrite F0 in Fr0. inv Fr0.
    assert (M : r_mem q = r_mem r); [|unfold grants in *; rewrite M, Em; exact A].
    rewrite Rq, find_add in Fq. destruct (Pos.eqb rid (r_id r)); [inv Fq; reflexivity|congruence].
  - apply (placed_frame None s1 s' v' Fr (rframe_sub _ _ _ Sub)); [discriminate|].
    apply (guard_placed s1 v _ v' G eq_refl Em Ep). intros rid route E. apply (NG rid). exists route. exact E.
Qed.

Lemma move_place s vid s' : Inv_place s -> vkeys s -> move env s vid = Ok s' -> Inv_place s'.
Proof.
  intros J K H. pose proof J as (_ & _ & Jv).
  destruct (move_cases env s vid s' H) as (v & m & route & tr & Fv & _ & Sr & _ & [(_ & M)|[(_ & G)|(e0 & w & _ & _ & Ew & M)]]).
  - apply (Inv_modv env placed placed_frame s _ s' J K M). apply (placed_moved s v _ route []); [reflexivity|reflexivity|exact Sr|reflexivity|exact (Jv _ _ Fv)].
  - exact (go_out_inv env placed placed_frame placed_out s vid v s' J K Fv G).
  - destruct (moved_fields m v _ _ _ _ w Ew) as (Ei & Es & Em & _).
    apply (Inv_modv env placed placed_frame (emit s _) w s' J K M). exact (placed_moved s v w route _ Ei Em Sr Es (Jv _ _ Fv)).
Qed.

Lemma mstep_place s s' : vkeys s -> Inv_place s -> MStep env s s' -> Inv_place s'.
Proof.
  apply (mstep_inv env placed placed_frame placed_fields placed_idle).
  - intros a vid st nx b K J _ _ T. exact (transition_place a vid st nx b J K T).
  - intros a vid b K J M. exact (move_place a vid b J K M).
Qed.

(* C07 (places) and C10 (access) over every finite history, any controller *)
Theorem place_invariant ops : forall s0, vkeys s0 -> Inv_place s0 -> Forall op_ok ops ->
  vkeys (fold_left (step_op env) ops s0) /\ Inv_place (fold_left (step_op env) ops s0).
Proof. apply (history_invariant env Inv_place). intros s s' K J M. eapply mstep_place; eauto. Qed.

(* a freshly loaded state: every vehicle idle *)
Lemma Inv_place_initial s : skeys (stations s) -> bkeys (bases s) ->
  (forall k v, find k (vehicles s) = Some v -> exists d, v_state v = Idle d) -> Inv_place s.
Proof. intros SK BK HV. split; [exact SK|]. split; [exact BK|]. intros k v F. destruct (HV k v F) as [d E]. exact (placed_idle s v d E). Qed.

Definition at_place (s : Sim) (v : Vehicle) : Prop :=
  match v_state v with
  | ChargingStation sid _ | ChargeQueueing sid _ _ => exists x, find sid (stations s) = Some x /\ v_geoid v = s_geoid x
  | ReserveBase bid | ChargingBase bid _ => exists b, find bid (bases s) = Some b /\ v_geoid v = b_geoid b
  | _ => True
  end.
Definition has_access (s : Sim) (v : Vehicle) : Prop :=
  match v_state v with
  | ChargingStation sid _ | ChargeQueueing sid _ _ | DispatchStation sid _ _ => exists x, find sid (stations s) = Some x /\ grants (s_mem x) v
  | ReserveBase bid | DispatchBase bid _ => exists b, find bid (bases s) = Some b /\ grants (b_mem b) v
  | ChargingBase bid _ => exists b sid x, find bid (bases s) = Some b /\ b_station b = Some sid /\ find sid (stations s) = Some x /\
                                          grants (b_mem b) v /\ grants (s_mem x) v
  | DispatchTrip rid _ => forall q, find rid (requests s) = Some q -> r_disp q = Some (v_id v) -> grants (r_mem q) v
  | ServicingTrip q _ _ => grants (r_mem q) v
  | _ => True
  end.
Lemma placed_at_place s v : placed s v -> at_place s v.
Proof.
  unfold placed, at_place. destruct (v_state v); auto.
  - intros (x & F & G & _). eauto.
  - intros (x & F & G & _). eauto.
  - intros (b & F & G & _). eauto.
  - intros (b & _ & _ & F & _ & _ & G & _). eauto.
Qed.
Lemma placed_has_access s v : placed s v -> has_access s v.
Proof.
  unfold placed, has_access. destruct (v_state v); auto.
  - intros (x & F & _ & A). eauto.
  - intros (x & F & _ & A). eauto.
  - intros (b & F & _ & A). eauto.
  - intros (b & sid & x & F & T & Fx & _ & A & A2). eauto 10.
Qed.
Theorem places_over_histories ops s0 : vkeys s0 -> Inv_place s0 -> Forall op_ok ops ->
  forall vid v, find vid (vehicles (fold_left (step_op env) ops s0)) = Some v -> at_place (fold_left (step_op env) ops s0) v.
Proof. intros K I Hok vid v F. destruct (place_invariant ops s0 K I Hok) as (_ & _ & _ & P). apply placed_at_place. eapply P; eauto. Qed.
Theorem access_over_histories ops s0 : vkeys s0 -> Inv_place s0 -> Forall op_ok ops ->
  forall vid v, find vid (vehicles (fold_left (step_op env) ops s0)) = Some v -> has_access (fold_left (step_op env) ops s0) v.
Proof. intros K I Hok vid v F. destruct (place_invariant ops s0 K I Hok) as (_ & _ & _ & P). apply placed_has_access. eapply P; eauto. Qed.
End P.
