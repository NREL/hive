(* Proofs/DropInv.v — C03, drop-off clause, over whole histories: every drop-off event in the log was filed by the vehicle that had
   picked that request up and had not dropped it yet — so a picked-up request is dropped off at most once, and by the same vehicle
   (that it happens at the destination is the per-transition theorem trip_ends_at_destination).  Read off the event log: `trip l vid`
   is the last pickup of vehicle vid in l and whether it has been dropped. *)
From Hive.Base Require Import Prelude.
From Hive.Model Require Import Types KernelBase SimOps States Step.
From Hive.Gen Require Import Kernels.
From Hive.Proofs Require Import SimFacts Writes Reach VehFrame Atomic Trip Move Energy Macro DispInv RouteInv LedgerInv.

Definition trip_ev (e : Event) (vid : id) (cur : option (id * bool)) : option (id * bool) :=
  match e with
  | EvPickup rid v _ _ _ => if Pos.eqb v vid then Some (rid, false) else cur
  | EvDropoff rid v _ _ => if Pos.eqb v vid then match cur with Some (r, false) => if Pos.eqb r rid then Some (rid, true) else cur | _ => cur end else cur
  | _ => cur
  end.
Fixpoint trip (l : list Event) (vid : id) : option (id * bool) :=
  match l with [] => None | e :: t => trip_ev e vid (trip t vid) end.
(* every drop-off was filed by the vehicle carrying that request *)
Fixpoint wfd (l : list Event) : Prop :=
  match l with
  | [] => True
  | e :: t => wfd t /\ match e with EvDropoff rid v _ _ => trip t v = Some (rid, false) | _ => True end
  end.
Definition notrip (e : Event) : Prop := match e with EvPickup _ _ _ _ _ | EvDropoff _ _ _ _ => False | _ => True end.
Lemma trip_notrip vid e l : notrip e -> trip (e :: l) vid = trip l vid.
Proof. destruct e; cbn; intro N; try contradiction; reflexivity. Qed.
Lemma wfd_notrip e l : notrip e -> wfd l -> wfd (e :: l).
Proof. destruct e; cbn; intros N W; try contradiction; auto. Qed.

(* consequence: once dropped, not dropped again (until the vehicle picks somebody up) *)
Theorem dropped_once l2 rid vid g t l1 : wfd (l2 ++ EvDropoff rid vid g t :: l1) ->
  (forall e, In e l2 -> match e with EvPickup _ v _ _ _ => v <> vid | _ => True end) ->
  forall e, In e l2 -> match e with EvDropoff _ v _ _ => v <> vid | _ => True end.
Proof.
  intros W NP.
  assert (St : forall l2', (forall e, In e l2' -> match e with EvPickup _ v _ _ _ => v <> vid | _ => True end) -> wfd (l2' ++ EvDropoff rid vid g t :: l1) ->
            (exists r, trip (l2' ++ EvDropoff rid vid g t :: l1) vid = Some (r, true)) /\
            (forall e, In e l2' -> match e with EvDropoff _ v _ _ => v <> vid | _ => True end)).
  { induction l2' as [|e l2' IH]; intros NP' W'.
    - cbn in W'. destruct W' as [_ Tr]. split; [|intros e []]. cbn. rewrite Pos.eqb_refl, Tr, Pos.eqb_refl. eauto.
    - cbn in W'. destruct W' as [W' He]. destruct (IH (fun x I => NP' x (or_intror I)) W') as [[r Tr] ND]. split.
      + cbn. pose proof (NP' e (or_introl eq_refl)) as Ne. destruct e; cbn; eauto.
        * destruct (Pos.eqb_spec vid0 vid); [contradiction|eauto].
        * destruct (Pos.eqb_spec vid0 vid); [|eauto]. rewrite Tr. eauto.
      + intros x [<-|Ix]; [|apply ND; exact Ix]. destruct e; try exact I. intro Ev. subst. rewrite Tr in He. discriminate. }
  apply (St l2 NP W).
Qed.

Section D.
Variable env : Env.

(* a vehicle in ServicingTrip with road ahead is carrying its request, not yet dropped; with an exhausted route it has at least
   picked it up *)
Definition carrying (s : Sim) : Prop :=
  forall vid v q d r, find vid (vehicles s) = Some v -> v_state v = ServicingTrip q d r ->
    match r with [] => exists b, trip (log s) vid = Some (r_id q, b) | _ => trip (log s) vid = Some (r_id q, false) end.
Definition Inv_drop (s : Sim) : Prop := wfd (log s) /\ carrying s.

(* steps that file neither pickups nor drop-offs *)
Lemma tq_trip s s' vid : log_ext notrip s s' -> trip (log s') vid = trip (log s) vid.
Proof. apply (log_ext_fold notrip (fun l => trip l vid)), trip_notrip. Qed.
Lemma tq_wfd s s' : log_ext notrip s s' -> wfd (log s) -> wfd (log s').
Proof. apply (log_ext_preserves notrip wfd), wfd_notrip. Qed.
(* no trip event and every vehicle in the activity it had (or no longer in ServicingTrip) *)
Lemma tq_drop s s' : log_ext notrip s s' -> Inv_drop s ->
  (forall vid w q d r, find vid (vehicles s') = Some w -> v_state w = ServicingTrip q d r ->
     exists v r0, find vid (vehicles s) = Some v /\ v_state v = ServicingTrip q d r0 /\ (r0 = [] -> r = []) /\ (r <> [] -> r0 <> [])) -> Inv_drop s'.
Proof.
  intros Q [W C] Hv. split; [eapply tq_wfd; eauto|]. intros vid w q d r Fw Sw. rewrite (tq_trip _ _ vid Q).
  destruct (Hv _ _ _ _ _ Fw Sw) as (v & r0 & Fv & Sv & E1 & E2). pose proof (C _ _ _ _ _ Fv Sv) as T.
  destruct r as [|l r]; destruct r0 as [|l0 r0]; auto; [eauto|exfalso; apply (E2 ltac:(discriminate)); reflexivity].
Qed.
Lemma same_states_drop s s' : log_ext notrip s s' -> vehicles s' = vehicles s -> Inv_drop s -> Inv_drop s'.
Proof. intros Q V I. apply (tq_drop s s' Q I). intros vid w q d r Fw Sw. rewrite V in Fw. exists w, r. auto. Qed.
Lemma emit_drop s a e : notrip e -> vehicles a = vehicles s -> log a = log s -> Inv_drop s -> Inv_drop (emit a e).
Proof. intros N V L. apply same_states_drop; [eapply log_ext_emit; [exact N|cbn; rewrite L; reflexivity]|exact V]. Qed.
Lemma others_drop s s' vid : log_ext notrip s s' -> Inv_drop s -> (forall k, k <> vid -> find k (vehicles s') = find k (vehicles s)) ->
  (forall w q d r, find vid (vehicles s') = Some w -> v_state w <> ServicingTrip q d r) -> Inv_drop s'.
Proof.
  intros Q I Oth NS. apply (tq_drop s s' Q I). intros u w q d r Fw Sw. destruct (Pos.eq_dec u vid) as [->|Nu]; [destruct (NS _ _ _ _ Fw Sw)|].
  rewrite Oth in Fw by exact Nu. exists w, r. auto.
Qed.

(* the activity a transition leaves the vehicle in is the requested one (or the route-less ChargingStation) *)
Lemma enter_state_alt_of_transition s vid st nx s1 v' : vkeys s -> transition env s (vid, st) (vid, nx) = Ok s1 -> find vid (vehicles s1) = Some v' ->
  v_state v' = nx \/ state_route (v_state v') = None.
Proof.
  intros K T F. apply transition_ok_iff in T. destruct T as (s0 & X & N). eapply enter_state_alt; [|exact N|exact F].
  eapply vkeys_of_same; [eapply vs_exit_same; exact X|exact K].
Qed.

(* leaving an activity files nothing; only entering ServicingTrip files a trip event *)
Lemma exit_tq vs nx s s1 : vs_exit env vs nx s = Ok s1 -> log_ext notrip s s1.
Proof. intro X. apply (Writes_log_ext env anyone nothing notrip (fun _ => True) True); [intros e []|]. eapply exit_writes; exact X. Qed.
Lemma transition_tq s vid st nx s' : (forall q d r, nx <> ServicingTrip q d r) -> transition env s (vid, st) (vid, nx) = Ok s' -> log_ext notrip s s'.
Proof.
  intros NS T. apply (Writes_log_ext env (on vid) (enter_files vid nx) notrip (fun _ => True) True); [|eapply transition_writes; [exact (fun _ X => X)|exact T]].
  intros e F. destruct nx; try (destruct F; fail). destruct (NS _ _ _ eq_refl).
Qed.
Lemma transition_drop s vid st nx s' : Inv_drop s -> vkeys s -> vstate_of s vid = Some st ->
  transition env s (vid, st) (vid, nx) = Ok s' -> Inv_drop s' /\
  (forall q d r, nx = ServicingTrip q d r -> trip (log s') vid = Some (r_id q, false)).
Proof.
  intros I K Hst T. destruct (transition_vonly env _ _ _ _ _ T K) as [_ Oth].
  pose proof (fun w => enter_state_alt_of_transition _ _ _ _ _ w K T) as Alt.
  assert (Plain : (forall q d r, nx <> ServicingTrip q d r) -> Inv_drop s').
  { intro NS. apply (others_drop s s' vid (transition_tq _ _ _ _ _ NS T) I Oth). intros w q d r Fw Sw.
    destruct (Alt w Fw) as [E|E]; rewrite Sw in E; [eapply NS; symmetry; exact E|discriminate E]. }
  destruct nx; try (split; [apply Plain|]; intros; discriminate).
  (* ServicingTrip: exactly the pickup by vid is filed, at the end *)
  apply transition_ok_iff in T. destruct T as (s1 & X & N). destruct (enter_servicing_cases env _ _ _ _ _ _ N) as (a & P & A).
  apply pick_up_trip_spec in P. destruct P as (pv & pr & _ & _ & _ & _ & L & _).
  apply apply_new_vehicle_state_spec in A. destruct A as (_ & _ & _ & _ & _ & _ & _ & _ & _ & L'). rewrite L in L'.
  destruct I as [W C]. unfold Inv_drop, carrying. rewrite L'. cbn [wfd trip trip_ev]. rewrite Pos.eqb_refl. split; [split|].
  - split; [eapply tq_wfd; [eapply exit_tq; exact X|exact W]|exact Logic.I].
  - intros u w q0 d0 r0 Fw Sw. destruct (Pos.eqb_spec vid u) as [<-|Nu].
    + destruct (Alt w Fw) as [En|En]; rewrite Sw in En; [|discriminate En]. inv En. destruct route; eauto.
    + rewrite Oth in Fw by congruence. rewrite (tq_trip _ _ u (exit_tq _ _ _ _ X)). apply (C _ _ _ _ _ Fw Sw).
  - intros q0 d0 r0 En. inv En. reflexivity.
Qed.

Lemma move_state s vid s' v : vkeys s -> find vid (vehicles s) = Some v -> move env s vid = Ok s' ->
  exists w, find vid (vehicles s') = Some w /\ (v_state w = OutOfService \/ exists r, v_state w = update_route (v_state v) r).
Proof.
  intros K Fv H. assert (Hid : v_id v = vid) by (apply K; exact Fv).
  destruct (move_cases env _ _ _ H) as (v0 & m & route & tr & Fv0 & _ & _ & _ & C). rewrite Fv in Fv0. injection Fv0 as <-.
  destruct C as [(_ & M)|[(_ & G)|(e0 & w & _ & _ & Ew & M)]].
  - eexists. split; [rewrite <- Hid; exact (modv_find env _ _ _ M)|]. right. eexists. reflexivity.
  - destruct (go_out_cases env _ _ _ _ Fv G) as (s1 & X & A). apply apply_new_vehicle_state_spec in A. destruct A as (x & Fx & V & _).
    assert (V1 : vehicles s1 = vehicles s) by (destruct X as [X| ->]; [eapply vs_exit_same; exact X|reflexivity]).
    rewrite V1, Fv in Fx. injection Fx as <-. eexists. split; [rewrite V, find_add, Hid, Pos.eqb_refl; reflexivity|]. left. reflexivity.
  - destruct (moved_fields _ _ _ _ _ _ _ Ew) as (Ei & Es & _). exists w. split; [rewrite <- Hid, <- Ei; exact (modv_find env _ _ _ M)|]. right. eexists. exact Es.
Qed.
Lemma charge_state s vid sid cid s' v : vkeys s -> find vid (vehicles s) = Some v -> charge env s vid sid cid = Ok s' ->
  exists w, find vid (vehicles s') = Some w /\ v_state w = v_state v.
Proof.
  intros K Fv H. destruct (charge_ledger env _ _ _ _ _ H) as (v0 & stn & m & c & v1 & Fv0 & _ & _ & _ & -> & L). cbv zeta in L. destruct L as (V & _).
  rewrite Fv in Fv0. injection Fv0 as <-. destruct (mech_add_energy_frame m v c (dt s)) as (Ei & _ & _ & _ & _ & Es & _).
  eexists. split; [rewrite V; change (v_id (veh_send_payment ?x ?p)) with (v_id x); rewrite Ei, (K _ _ Fv), find_add, Pos.eqb_refl; reflexivity|exact Es].
Qed.
(* the activity an update of st over a time step t may leave: only an empty tank ends it, a drive shortens its route, idling adds up *)
Definition updated (st : VState) (t : Z) (st' : VState) : Prop :=
  st' = OutOfService \/ (exists r, st' = update_route st r) \/ exists d, st = Idle d /\ st' = Idle (d + t).
Lemma perform_update_state s vid st s' v : vkeys s -> find vid (vehicles s) = Some v -> v_state v = st -> perform_update env vid st s = Ok s' ->
  exists w, find vid (vehicles s') = Some w /\ updated st (dt s) (v_state w).
Proof.
  intros K Fv Est H. assert (Hid : v_id v = vid) by (apply K; exact Fv).
  assert (Mv : forall a, move env s vid = Ok a -> exists w, find vid (vehicles a) = Some w /\ updated st (dt s) (v_state w)).
  { intros a M. destruct (move_state _ _ _ _ K Fv M) as (w & Fw & [O|(r & E)]); exists w; (split; [exact Fw|]); [left; exact O|].
    right; left. exists r. rewrite E, Est. reflexivity. }
  (* the updates that keep the activity, when it has no route *)
  assert (Kept : update_route st [] = st -> forall w, find vid (vehicles s') = Some w -> v_state w = v_state v ->
            exists w, find vid (vehicles s') = Some w /\ updated st (dt s) (v_state w)).
  { intros U w Fw Ew. exists w. split; [exact Fw|]. right; left. exists []. rewrite U, Ew. exact Est. }
  destruct st; try (apply Mv; exact H); try (injection H as <-; apply (Kept eq_refl v Fv eq_refl)).
  - cbn [perform_update] in H. rewrite Fv in H. dmatch H. destruct (mech_idle_frame m v (dt s)) as (Ei & _).
    eexists. split; [rewrite <- Hid, <- Ei; exact (modv_find env _ _ _ H)|]. right; right. eexists. split; reflexivity.
  - destruct (servicing_update_cases env _ _ _ _ _ _ H) as (a & M & [->|(w & q' & d' & g & t & _ & _ & ->)]); exact (Mv a M).
  - destruct (charge_unless_full_cases env _ _ _ _ _ H) as [->|C]; [apply (Kept eq_refl v Fv eq_refl)|].
    destruct (charge_state _ _ _ _ _ _ K Fv C) as (w & Fw & Ew). apply (Kept eq_refl w Fw Ew).
  - cbn [perform_update] in H. rewrite Fv in H. dmatch H. destruct (mech_idle_frame m v (dt s)) as (Ei & _ & _ & _ & _ & Es & _).
    apply (Kept eq_refl (mech_idle m v (dt s))); [rewrite <- Hid, <- Ei; exact (modv_find env _ _ _ H)|exact Es].
  - cbn [perform_update] in H. repeat dmatch H. destruct (charge_state _ _ _ _ _ _ K Fv H) as (w & Fw & Ew). apply (Kept eq_refl w Fw Ew).
Qed.

Lemma move_tq s vid s' : move env s vid = Ok s' -> log_ext notrip s s'.
Proof. intro H. apply (Writes_log_ext env (on vid) notrip notrip (fun _ => True) True); [auto|]. eapply move_writes; [intros; exact I|exact H]. Qed.
Lemma move_vonly s vid s' : move env s vid = Ok s' -> vonly vid s s'.
Proof. intro H. eapply Writes_vonly, (move_writes env notrip (fun _ => True) True); [intros; exact I|exact H]. Qed.
(* an activity other than ServicingTrip files only move and charge events *)
Lemma perform_tq vid st s s' : (forall q d r, st <> ServicingTrip q d r) -> perform_update env vid st s = Ok s' -> log_ext notrip s s'.
Proof.
  intros NS H. apply (Writes_log_ext env (on vid) (update_files vid st) notrip (fun _ => True) True); [|eapply perform_writes; [exact (fun _ X => X)|exact H]].
  intros e F. destruct e; cbn in *; try tauto. destruct F as [_ F]. destruct st; try contradiction. eapply NS; reflexivity.
Qed.

Lemma perform_drop s vid st s' v : Inv_drop s -> vkeys s -> find vid (vehicles s) = Some v -> v_state v = st ->
  perform_update env vid st s = Ok s' ->
  (forall q d r, st = ServicingTrip q d r -> trip (log s) vid = Some (r_id q, false)) -> Inv_drop s'.
Proof.
  intros I K Fv Est H Carry. destruct (perform_update_vonly env vid st s s' H K) as [_ Oth].
  assert (Plain : (forall q d r, st <> ServicingTrip q d r) -> Inv_drop s').
  { intro NS. apply (others_drop s s' vid (perform_tq _ _ _ _ NS H) I Oth). intros x q d r Fx Sx.
    destruct (perform_update_state _ _ _ _ _ K Fv Est H) as (w & Fw & Sw). rewrite Fw in Fx. injection Fx as <-.
    destruct Sw as [E|[(r' & E)|(d' & _ & E)]]; rewrite Sx in E; try discriminate E. destruct st; try discriminate E. eapply NS; reflexivity. }
  destruct st; try (apply Plain; intros; discriminate).
  destruct (servicing_update_cases env _ _ _ _ _ _ H) as (a & M & Dr). pose proof (move_tq _ _ _ M) as Qa.
  destruct (move_vonly _ _ _ M K) as [_ Otha].
  destruct (move_state _ _ _ _ K Fv M) as (w & Fw & Sw). rewrite Est in Sw. cbn [update_route] in Sw.
  (* after the move vid still carries its request *)
  assert (Ia : Inv_drop a).
  { destruct I as [W C]. split; [eapply tq_wfd; eauto|]. intros u x q d r Fx Sx. rewrite (tq_trip _ _ u Qa). destruct (Pos.eq_dec u vid) as [->|Nu].
    - rewrite Fw in Fx. injection Fx as <-. destruct Sw as [E|[r' E]]; rewrite Sx in E; [discriminate E|]. injection E as -> -> ->. rewrite (Carry _ _ _ eq_refl). destruct r'; eauto.
    - rewrite Otha in Fx by exact Nu. apply (C _ _ _ _ _ Fx Sx). }
  destruct Dr as [->|(w' & q' & d' & g & t & Fw' & Sw' & ->)]; [exact Ia|].
  (* the route is exhausted: the drop-off is filed *)
  rewrite Fw in Fw'. injection Fw' as <-. destruct Sw as [E|[r' E]]; rewrite Sw' in E; [discriminate E|]. injection E as -> -> _.
  destruct Ia as [Wa Ca]. split.
  - cbn. split; [exact Wa|]. rewrite (tq_trip _ _ vid Qa). apply (Carry _ _ _ eq_refl).
  - intros u x q d r Fx Sx. cbn in Fx |- *. destruct (Pos.eqb_spec vid u) as [<-|Nu]; [|apply (Ca _ _ _ _ _ Fx Sx)].
    rewrite (tq_trip _ _ vid Qa), (Carry _ _ _ eq_refl), Pos.eqb_refl. rewrite Fw in Fx. injection Fx as <-. rewrite Sw' in Sx. injection Sx as <- _ <-. eauto.
Qed.

Lemma driver_drop rt s v s' : vkeys s -> Inv_drop s -> driver_update env rt s v = Ok s' -> Inv_drop s'.
Proof.
  intros K I H. destruct (driver_update_cases env _ _ _ _ H) as [->|(on & cur & dr & F & M)]; [exact I|].
  apply modify_vehicle_spec in M. destruct M as (_ & V & _ & _ & _ & _ & _ & _ & L). cbn in V, L.
  assert (Q : log_ext notrip s s') by (eapply log_ext_emit; [|exact L]; exact Logic.I).
  apply (tq_drop s s' Q I). intros u w q d r Fw Sw. rewrite V, find_add in Fw. cbn in Fw. rewrite (K _ _ F) in Fw.
  destruct (Pos.eqb_spec u (v_id v)) as [->|Nu]; [inv Fw; exists cur, r; auto|exists w, r; auto].
Qed.

Lemma mstep_drop s s' : vkeys s -> Inv_drop s -> MStep env s s' -> Inv_drop s'.
Proof.
  intros K I M.
  destruct M as [s vid st nx s' Hst T _|s vid st s' Hst P NT|s rid|s r _|s sid prices|rt s v s' D|s s' [V _] L|s|s vid st nx s1 v' s' Hst _ _ T F1 P].
  - eapply transition_drop; eauto.
  - (* _perform_update of a non-terminal activity: a ServicingTrip has road ahead, so its request is carried and not dropped *)
    apply vstate_of_Some in Hst. destruct Hst as (v & Fv & Est).
    apply (perform_drop s vid st s' v I K Fv Est P). intros q d r ->.
    pose proof (proj2 I _ _ _ _ _ Fv Est) as C. destruct r; [discriminate NT|exact C].
  - destruct (cancel_one_cases env s rid) as [->|(r & a & _ & _ & R & ->)]; [exact I|]. apply remove_request_spec in R. destruct R as (_ & V & _ & _ & _ & _ & _ & L).
    apply (emit_drop s); [exact Logic.I|assumption..].
  - destruct (admit_request_cases env s r) as [->|(a & R & ->)]; [exact I|]. apply add_request_spec in R. destruct R as (_ & V & _ & _ & _ & _ & _ & L).
    apply (emit_drop s); [exact Logic.I|assumption..].
  - destruct (update_station_prices_cases env s sid prices) as [->|(st & _ & R)]; [exact I|]. apply modify_station_spec in R. destruct R as (_ & _ & V & _ & _ & _ & _ & _ & L).
    eapply same_states_drop; [apply log_ext_same; exact L|exact V|exact I].
  - eapply driver_drop; eauto.
  - eapply same_states_drop; [apply log_ext_same; exact L|exact V|exact I].
  - eapply same_states_drop; [apply log_ext_same; reflexivity|reflexivity|exact I].
  - (* default transition then the first _perform_update of the activity entered: a ServicingTrip entered now has just been picked up *)
    destruct (transition_vonly env _ _ _ _ _ T K) as [K1 _].
    destruct (transition_drop _ _ _ _ _ I K Hst T) as [I1 Just].
    apply (perform_drop s1 vid (v_state v') s' v' I1 K1 F1 eq_refl P). intros q d r E.
    destruct (enter_state_alt_of_transition _ _ _ _ _ _ K T F1) as [En|En]; [|rewrite E in En; discriminate En].
    apply (Just q d r). congruence.
Qed.

Theorem drop_invariant ops : forall s0, vkeys s0 -> Inv_drop s0 -> Forall op_ok ops ->
  vkeys (fold_left (step_op env) ops s0) /\ Inv_drop (fold_left (step_op env) ops s0).
Proof. apply (history_invariant env Inv_drop). apply mstep_drop. Qed.
Lemma Inv_drop_initial s : log s = [] -> (forall k v, find k (vehicles s) = Some v -> forall q d r, v_state v <> ServicingTrip q d r) -> Inv_drop s.
Proof. intros L NS. split; [rewrite L; exact I|]. intros vid v q d r F S. exfalso. eapply NS; eauto. Qed.
End D.
