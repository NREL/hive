(* Proofs/Member.v — C10: the generated membership test (membership.py) means what the property says. *)
From Hive.Base Require Import Prelude.
From Hive.Model Require Import Types KernelBase.
From Hive.Gen Require Import Kernels.

Lemma sinter_In x a b : In x (sinter a b) <-> In x a /\ In x b.
Proof. unfold sinter. rewrite filter_In, smem_In. tauto. Qed.

Lemma membership_public_spec (e : Membership) : membership_public e = true <-> e = [].
Proof. unfold membership_public. destruct e; cbn [length]; split; (reflexivity || discriminate || lia). Qed.

(* access is granted exactly when the entity is public (no membership) or shares at least one fleet with the vehicle *)
Lemma grant_access_spec (e v : Membership) :
  grant_access_to_membership e v = true <-> e = [] \/ exists f, In f e /\ In f v.
Proof.
  unfold grant_access_to_membership, memberships_in_common. destruct (membership_public e) eqn:P.
  { apply membership_public_spec in P. split; auto. }
  rewrite Z.ltb_lt. split.
  - intro H. right. destruct (sinter e v) as [|f l] eqn:S; [cbn in H; lia|].
    exists f. apply sinter_In. rewrite S. left. reflexivity.
  - intros [H|[f [H1 H2]]]; [apply membership_public_spec in H; congruence|].
    assert (I : In f (sinter e v)) by (apply sinter_In; auto).
    destruct (sinter e v); [destruct I|]. cbn [length]. lia.
Qed.
Lemma grant_access_id_spec (e : Membership) (f : id) :
  grant_access_to_membership_id e f = true <-> e = [] \/ In f e.
Proof.
  unfold grant_access_to_membership_id. destruct (membership_public e) eqn:P.
  { apply membership_public_spec in P. split; auto. }
  rewrite smem_In. split; [auto|]. intros [H|H]; [apply membership_public_spec in H; congruence|exact H].
Qed.
