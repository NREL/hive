(* Proofs/Routing.v — C13: assembled routes are connected paths from origin to destination over existing links;
   C14: soundness of the potential certificate and admissibility of a ratio-scaled great-circle heuristic. *)
From Hive.Base Require Import Prelude.
From Hive.Model Require Import Types Route.
Local Open Scope Q_scope.

Lemma last_cons {A} (q : list A) : forall b a, last (b :: q) a = last q b.
Proof.
  induction q as [|c q IH]; intros b a; [reflexivity|].
  change (last (b :: c :: q) a) with (last (c :: q) a). rewrite (IH c a), (IH c b). reflexivity.
Qed.

Section C13.
  Variable tab : linkid -> option LinkT.
  Variable cell : node -> geoid.
  (* the link table is consistent: link (u,v) runs from the cell of u to the cell of v and carries its id
     (true by construction in OSMRoadNetworkLinkHelper.build; re-checked by the harness on every graph it loads) *)
  Hypothesis tab_ok : forall u v l, tab (u, v) = Some l -> l_id l = (u, v) /\ l_start l = cell u /\ l_end l = cell v.

  (* chain x r y : the links of r join end to start, the first starts at x and the last ends at y (x = y when r is empty) *)
  Inductive chain : geoid -> Route -> geoid -> Prop :=
  | ch_nil g : chain g [] g
  | ch_cons l r g : chain (l_end l) r g -> chain (l_start l) (l :: r) g.
  Definition in_table (l : LinkT) : Prop := exists l0, tab (l_id l) = Some l0 /\ l_speed l0 = l_speed l.

  Lemma chain_app x r1 y r2 z : chain x r1 y -> chain y r2 z -> chain x (r1 ++ r2) z.
  Proof. induction 1; cbn; [auto|]. intro H2. constructor. auto. Qed.

  Lemma links_of_path_cons2 a b q : links_of_path tab (a :: b :: q) =
    match tab (a, b), links_of_path tab (b :: q) with Some l, Some r => Some (l :: r) | _, _ => None end.
  Proof. reflexivity. Qed.
  Lemma links_of_path_spec : forall q a r, links_of_path tab (a :: q) = Some r ->
    chain (cell a) r (cell (last q a)) /\ Forall in_table r.
  Proof.
    induction q as [|b q IH]; intros a r H.
    - inv H. split; constructor.
    - rewrite links_of_path_cons2 in H. destruct (tab (a, b)) as [l|] eqn:T; [|discriminate].
      destruct (links_of_path tab (b :: q)) as [r'|] eqn:R; [|discriminate]. inv H.
      destruct (tab_ok _ _ _ T) as (Hid & Hs & He). destruct (IH b r' R) as (C & F).
      rewrite last_cons. split.
      + rewrite <- Hs. constructor. rewrite He. exact C.
      + constructor; [|exact F]. exists l. rewrite Hid. auto.
  Qed.

  (* networkx.astar_path: returns a node path from its source to its target whose steps are edges of the graph *)
  Variable astar : node -> node -> list node.
  Hypothesis astar_ok : forall a b, exists q, astar a b = a :: q /\ last q a = b /\ links_of_path tab (a :: q) <> None.

  Lemma osm_route_unfold o d inner sl dl : pos_eqb o d = false ->
    links_of_path tab (astar (snd (p_link o)) (fst (p_link d))) = Some inner ->
    tab (p_link o) = Some sl -> tab (p_link d) = Some dl ->
    osm_route tab astar o d = (sl <| l_start := p_geoid o |>) :: inner ++ [dl <| l_end := p_geoid d |>].
  Proof. intros H H0 H1 H2. unfold osm_route. rewrite H, H0, H1, H2. reflexivity. Qed.

  Theorem osm_route_spec (o d : Pos) sl dl : pos_eqb o d = false ->
    tab (p_link o) = Some sl -> tab (p_link d) = Some dl ->
    let r := osm_route tab astar o d in
    r <> [] /\ chain (p_geoid o) r (p_geoid d) /\ Forall in_table r.
  Proof.
    intros Hne Ts Td r. subst r.
    destruct (astar_ok (snd (p_link o)) (fst (p_link d))) as (q & Ea & El & Hn).
    destruct (links_of_path tab (snd (p_link o) :: q)) as [inner|] eqn:L; [|exfalso; apply Hn; exact L].
    rewrite (osm_route_unfold o d inner sl dl Hne) by (rewrite ?Ea; assumption).
    destruct (links_of_path_spec _ _ _ L) as (C & F). rewrite El in C.
    destruct (p_link o) as [ou ov]. destruct (p_link d) as [du dv]. cbn [fst snd] in C.
    destruct (tab_ok _ _ _ Ts) as (Sid & Ss & Se). destruct (tab_ok _ _ _ Td) as (Did & Ds & De).
    split; [discriminate|]. split.
    - refine (ch_cons (sl <| l_start := p_geoid o |>) _ _ _). cbn. rewrite Se.
      eapply chain_app; [exact C|]. rewrite <- Ds. exact (ch_cons (dl <| l_end := p_geoid d |>) _ _ (ch_nil _)).
    - constructor.
      + exists sl. cbn. rewrite Sid. auto.
      + apply Forall_app. split; [exact F|]. constructor; [|constructor]. exists dl. cbn. rewrite Did. auto.
  Qed.
  (* the route is empty only when origin and destination coincide *)
  Theorem osm_route_empty_iff (o d : Pos) sl dl : tab (p_link o) = Some sl -> tab (p_link d) = Some dl ->
    (osm_route tab astar o d = [] <-> pos_eqb o d = true).
  Proof.
    intros Ts Td. split.
    - intro E. destruct (pos_eqb o d) eqn:P; [reflexivity|]. destruct (osm_route_spec o d sl dl P Ts Td) as (N & _). contradiction.
    - intro P. unfold osm_route. rewrite P. reflexivity.
  Qed.
End C13.

(* the straight-line network: one synthetic link from origin to destination (haversine_roadnetwork.route) *)
Definition hav_route_model (gc : geoid -> geoid -> Q) (speed : Q) (o d : Pos) : Route :=
  if pos_eqb o d then [] else [mkLinkT (p_geoid o, p_geoid d) (p_geoid o) (p_geoid d) (gc (p_geoid o) (p_geoid d)) speed].
Lemma hav_route_spec gc speed o d : pos_eqb o d = false ->
  exists l, hav_route_model gc speed o d = [l] /\ l_start l = p_geoid o /\ l_end l = p_geoid d.
Proof. intro H. unfold hav_route_model. rewrite H. eexists. split; [reflexivity|]. auto. Qed.

(* snapping: the position names a cell that lies on the link it names *)
Lemma position_on_link nearest line closest g p :
  (forall g cells, cells <> [] -> In (closest g cells) cells) -> (forall a b, line a b <> []) ->
  position_from_geoid nearest line closest g = Some p ->
  exists l, nearest g = Some l /\ p_link p = l_id l /\ In (p_geoid p) (line (l_start l) (l_end l)).
Proof.
  intros Hc Hl. unfold position_from_geoid. destruct (nearest g) as [l|]; [|discriminate].
  destruct (existsb (Pos.eqb g) (line (l_start l) (l_end l))) eqn:E; intro H; inversion H; subst; exists l; cbn; repeat split; auto.
  apply existsb_exists in E. destruct E as [x [Hx Ex]]. apply Pos.eqb_eq in Ex. subst. exact Hx.
Qed.

Section C14.
  Variable w : node -> node -> option Q.
  Variable pot : node -> Q.
  (* feasible potentials: pot v <= pot u + w(u,v) on every edge *)
  Hypothesis feas : forall u v x, w u v = Some x -> pot v <= pot u + x.

  Lemma path_weight_cons2 a b q : path_weight w (a :: b :: q) =
    match w a b, path_weight w (b :: q) with Some x, Some y => Some (x + y) | _, _ => None end.
  Proof. reflexivity. Qed.
  Lemma path_weight_lower_bound : forall q a x, path_weight w (a :: q) = Some x -> pot (last q a) - pot a <= x.
  Proof.
    induction q as [|b q IH]; intros a x H.
    - cbn in H. inversion H; subst. cbn. lra.
    - rewrite path_weight_cons2 in H. destruct (w a b) as [x1|] eqn:W; [|discriminate]. destruct (path_weight w (b :: q)) as [x2|] eqn:P; [|discriminate].
      inversion H; subst x. specialize (IH b x2 P). pose proof (feas _ _ _ W).
      rewrite last_cons. lra.
  Qed.
  (* the certificate: a path whose weight equals the potential difference of its ends is a minimum-weight path between them *)
  Theorem potentials_sound q a x : path_weight w (a :: q) = Some x -> x == pot (last q a) - pot a ->
    forall q' x', path_weight w (a :: q') = Some x' -> last q' a = last q a -> x <= x'.
  Proof. intros H E q' x' H' L. pose proof (path_weight_lower_bound q' a x' H'). rewrite L in H0. lra. Qed.
End C14.

Lemma feasible_b_spec (edges : list edge) pot : feasible_b edges pot = true ->
  forall u v x, In (u, v, x) edges -> pot v <= pot u + x.
Proof.
  unfold feasible_b. rewrite forallb_forall. intros H u v x I. specialize (H _ I). cbn in H. apply Qleb_le in H. exact H.
Qed.

(* admissibility of a ratio-scaled great-circle heuristic: if every edge costs at least rho x (great-circle length of the edge)
   and great-circle distance is a metric, then rho x gc(n, t) never over-estimates the cost of any path from n to t *)
Section Heuristic.
  Variable w : node -> node -> option Q.
  Variable gcn : node -> node -> Q.       (* great-circle distance between the cells of two nodes *)
  Variable rho : Q.
  Hypothesis rho_nonneg : 0 <= rho.
  Hypothesis gc_refl : forall a, gcn a a == 0.
  Hypothesis gc_tri : forall a b c, gcn a c <= gcn a b + gcn b c.
  Hypothesis edge_bound : forall u v x, w u v = Some x -> rho * gcn u v <= x.

  (* consistency (monotonicity), which is what lets A* close nodes for good *)
  Theorem heuristic_consistent : forall u v x t, w u v = Some x -> rho * gcn u t <= x + rho * gcn v t.
  Proof. intros u v x t W. pose proof (edge_bound _ _ _ W). pose proof (gc_tri u v t). nra. Qed.
  (* admissibility: by consistency, n |-> - rho x gc(n, t) is a feasible potential for the target t *)
  Theorem heuristic_admissible : forall q a x, path_weight w (a :: q) = Some x -> rho * gcn a (last q a) <= x.
  Proof.
    intros q a x H. set (t := last q a).
    assert (F : forall u v y, w u v = Some y -> - (rho * gcn v t) <= - (rho * gcn u t) + y).
    { intros u v y W. pose proof (heuristic_consistent u v y t W). lra. }
    pose proof (path_weight_lower_bound w _ F q a x H) as B. cbv beta in B. fold t in B. rewrite gc_refl in B. lra.
  Qed.
End Heuristic.
