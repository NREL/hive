(* Proofs/Writes.v — the call tree of the step model (States.v, Step.v), walked here for every other file.
   `exit_cases` / `enter_cases` say which primitive calls an activity makes when it is left / entered; the case lemmas at the end
   do the same for the operations that are not an activity's own.  On top of them every function reaches its result through a
   sequence of atomic writes (`Writes`), each of which remembers what it wrote: the record a vehicle / station / base / request
   write replaces and how the new record relates to it, the event filed, the request admitted.  A relation on states that is
   reflexive, transitive and contains the atoms therefore contains every function of the model (`Writes_lift`); the frame
   facts of the other files (primitive writes only, every vehicle but one untouched, vehicle records evolve by `VRel`,
   stations keep place and membership, which events may be filed, the clock) are instances.  What a closure cannot say
   (by exactly how much a counter moved, which books an event explains) starts from the case lemmas instead. *)
From Hive.Base Require Import Prelude.
From Hive.Model Require Import Types KernelBase SimOps States Step.
From Hive.Gen Require Import Kernels.
From Hive.Proofs Require Import SimFacts.

(* the shapes of a vehicle write, driver updates aside *)
Inductive VRel : Vehicle -> Vehicle -> Prop :=
| VR_state v st : VRel v (v <| v_state := st |>)
| VR_pay v q : VRel v (veh_receive_payment v q)
| VR_charge v m c t price : VRel v (veh_send_payment (fst (mech_add_energy m v c t)) price)
| VR_idle v m t st : VRel v ((mech_idle m v t) <| v_state := st |>)
| VR_idle0 v m t : VRel v (mech_idle m v t)
| VR_move v m exp p dist st : VRel v ((veh_tick_distance ((mech_consume m v exp) <| v_pos := p |>) dist) <| v_state := st |>).
(* a write by the vehicle's own activity, or by its driver's schedule *)
Inductive VWrite : Vehicle -> Vehicle -> Prop :=
| VW_rel v w : VRel v w -> VWrite v w
| VW_driver v dr : VWrite v (v <| v_driver := dr |>).

(* station and base writes keep identity, place, membership (and the station behind a base); request writes only assign or
   unassign the dispatched vehicle *)
Definition ssim (x x0 : Station) : Prop := s_id x = s_id x0 /\ s_pos x = s_pos x0 /\ s_mem x = s_mem x0.
Definition bsim (b b0 : Base) : Prop := b_id b = b_id b0 /\ b_pos b = b_pos b0 /\ b_mem b = b_mem b0 /\ b_station b = b_station b0.
Inductive RRel : Request -> Request -> Prop :=
| RR_assign r vid t : RRel r (req_assign_dispatched_vehicle r vid t)
| RR_unassign r : RRel r (req_unassign_dispatched_vehicle r).

Lemma ssim_refl x : ssim x x. Proof. repeat split. Qed.
Lemma bsim_refl x : bsim x x. Proof. repeat split. Qed.
Lemma ssu_sim stn cid op stn' : station_state_update stn cid op = Ok stn' -> ssim stn' stn.
Proof. unfold station_state_update. intro H. repeat dmatch H; inv H; repeat split. Qed.
Lemma ssou_sim stn cid op stn' : station_state_optional_update stn cid op = Ok stn' -> ssim stn' stn.
Proof. unfold station_state_optional_update. intro H. repeat dmatch H; inv H; repeat split. Qed.
Lemma return_stall_sim b b' : base_return_stall b = Ok b' -> bsim b' b.
Proof. unfold base_return_stall. destruct (Z.ltb _ _); intro X; inv X. repeat split. Qed.
Lemma checkout_stall_sim b b' : base_checkout_stall b = Some b' -> bsim b' b.
Proof. unfold base_checkout_stall. destruct (Z.ltb _ _); intro X; inv X. repeat split. Qed.
Lemma charged_station_sim st p et k : ssim (tick_energy_dispensed (station_receive_payment st p) et k) st.
Proof. destruct et; repeat split. Qed.
Lemma station_update_prices_sim prices : forall st, ssim (station_update_prices st prices) st.
Proof.
  unfold station_update_prices. induction prices as [|cp ps IH]; intro st; cbn [fold_left]; [apply ssim_refl|].
  destruct (IH (match find (fst cp) (s_state st) with Some cs => st <| s_state := PM.add (fst cp) (price_set cs (snd cp)) (s_state st) |> | None => st end)) as (A & B & C).
  destruct (find (fst cp) (s_state st)); repeat split; cbn in *; congruence.
Qed.

(* the events an activity may file on entry, and in its update *)
Definition enter_files (vid : id) (nx : VState) (e : Event) : Prop :=
  match nx, e with ServicingTrip q _ _, EvPickup rid v _ _ _ => rid = r_id q /\ v = vid | _, _ => False end.
Definition update_files (vid : id) (st : VState) (e : Event) : Prop :=
  match e with
  | EvMove v _ _ | EvCharge v _ _ _ _ _ _ => v = vid
  | EvDropoff rid v _ _ => v = vid /\ match st with ServicingTrip q _ _ => rid = r_id q | _ => False end
  | _ => False
  end.

Section W.
Variable env : Env.

Definition holds_nothing (st : VState) : Prop :=
  match st with ChargingStation _ _ | ChargingBase _ _ | ChargeQueueing _ _ _ | ReserveBase _ => False | _ => True end.
Inductive exit_case (s : Sim) : VState -> Sim -> Prop :=
| XC_keep st : holds_nothing st -> (forall rid rt, st = DispatchTrip rid rt -> find rid (requests s) = None) -> exit_case s st s
| XC_trip rid rt r s1 : find rid (requests s) = Some r -> modify_request env s (req_unassign_dispatched_vehicle r) = Ok s1 ->
    exit_case s (DispatchTrip rid rt) s1
| XC_plug sid cid stn stn' s1 : find sid (stations s) = Some stn -> return_charger stn cid = Ok stn' -> modify_station env s stn' = Ok s1 ->
    exit_case s (ChargingStation sid cid) s1
| XC_queue sid cid t stn stn' s1 : find sid (stations s) = Some stn -> dequeue_for_charger stn cid = Ok stn' -> modify_station env s stn' = Ok s1 ->
    exit_case s (ChargeQueueing sid cid t) s1
| XC_stall bid b b' s1 : find bid (bases s) = Some b -> base_return_stall b = Ok b' -> modify_base env s b' = Ok s1 -> exit_case s (ReserveBase bid) s1
| XC_base_plug bid cid b b' sid stn stn' s2 s1 : find bid (bases s) = Some b -> b_station b = Some sid -> find sid (stations s) = Some stn ->
    base_return_stall b = Ok b' -> modify_base env s b' = Ok s2 -> return_charger stn cid = Ok stn' -> modify_station env s2 stn' = Ok s1 ->
    exit_case s (ChargingBase bid cid) s1.
Lemma exit_cases vid st nx s s1 : vs_exit env (vid, st) nx s = Ok s1 -> exit_case s st s1.
Proof.
  unfold vs_exit. destruct st; intro H; try (inv H; apply XC_keep; [exact I|discriminate]).
  - unfold exit_dispatch_trip in H. dmatch H; [eapply XC_trip; eauto|]. inv H. apply XC_keep; [exact I|]. intros ? ? X. inv X. assumption.
  - dmatch H. inv H. apply XC_keep; [exact I|discriminate].
  - unfold exit_charging_station in H. repeat dmatch H. eapply XC_plug; eauto.
  - unfold exit_charge_queueing in H. repeat dmatch H. inv H. eapply XC_queue; eauto.
  - unfold exit_reserve_base in H. repeat dmatch H. eapply XC_stall; eauto.
  - unfold exit_charging_base in H. repeat dmatch H. eapply XC_base_plug; eauto.
Qed.

(* the location, membership and route checks of enter() are Guards.v's subject; here only what is written *)
Definition enters_plainly (nx : VState) : Prop :=
  match nx with Idle _ | OutOfService | Repositioning _ | DispatchStation _ _ _ | DispatchBase _ _ => True | _ => False end.
Inductive enter_case (vid : id) (s : Sim) : VState -> Sim -> Prop :=
| NC_plain nx s' : enters_plainly nx -> apply_new_vehicle_state env s vid nx = Ok s' -> enter_case vid s nx s'
| NC_trip rid rt r s1 s' : find rid (requests s) = Some r -> modify_request env s (req_assign_dispatched_vehicle r vid (sim_time s)) = Ok s1 ->
    apply_new_vehicle_state env s1 vid (DispatchTrip rid rt) = Ok s' -> enter_case vid s (DispatchTrip rid rt) s'
| NC_serve q d rt s1 s' : pick_up_trip env s vid (r_id q) = Ok s1 -> apply_new_vehicle_state env s1 vid (ServicingTrip q d rt) = Ok s' ->
    enter_case vid s (ServicingTrip q d rt) s'
(* a vehicle dispatched to the station it already stands at starts charging at once *)
| NC_plug nx sid cid stn stn' s1 s' : nx = ChargingStation sid cid \/ (exists rt, nx = DispatchStation sid cid rt) ->
    find sid (stations s) = Some stn -> checkout_charger stn cid = Ok stn' -> modify_station env s stn' = Ok s1 ->
    apply_new_vehicle_state env s1 vid (ChargingStation sid cid) = Ok s' -> enter_case vid s nx s'
| NC_queue sid cid t stn stn' s1 s' : find sid (stations s) = Some stn -> enqueue_for_charger stn cid = Ok stn' -> modify_station env s stn' = Ok s1 ->
    apply_new_vehicle_state env s1 vid (ChargeQueueing sid cid t) = Ok s' -> enter_case vid s (ChargeQueueing sid cid t) s'
| NC_stall bid b b' s1 s' : find bid (bases s) = Some b -> base_checkout_stall b = Some b' -> modify_base env s b' = Ok s1 ->
    apply_new_vehicle_state env s1 vid (ReserveBase bid) = Ok s' -> enter_case vid s (ReserveBase bid) s'
| NC_base_plug bid cid b b' sid stn stn' s2 s3 s' : find bid (bases s) = Some b -> b_station b = Some sid -> find sid (stations s) = Some stn ->
    base_checkout_stall b = Some b' -> checkout_charger stn cid = Ok stn' -> modify_base env s b' = Ok s2 -> modify_station env s2 stn' = Ok s3 ->
    apply_new_vehicle_state env s3 vid (ChargingBase bid cid) = Ok s' -> enter_case vid s (ChargingBase bid cid) s'.
Lemma enter_cases vid nx s s' : vs_enter env (vid, nx) s = Ok s' -> enter_case vid s nx s'.
Proof.
  assert (CS : forall nx sid cid, nx = ChargingStation sid cid \/ (exists rt, nx = DispatchStation sid cid rt) ->
                enter_charging_station env vid sid cid s = Ok s' -> enter_case vid s nx s').
  { intros nx0 sid cid Hn H. unfold enter_charging_station, rbind in H. repeat dmatch H. eapply NC_plug; eauto. }
  unfold vs_enter. destruct nx; intro H; try (apply NC_plain; [exact I|exact H]).
  - unfold enter_repositioning in H. repeat dmatch H. apply NC_plain; [exact I|exact H].
  - unfold enter_dispatch_trip in H. repeat dmatch H. eapply NC_trip; eauto.
  - unfold enter_servicing_trip, rbind in H. repeat dmatch H. eapply NC_serve; eauto.
  - unfold enter_dispatch_station in H. repeat dmatch H; [eapply CS; eauto|apply NC_plain; [exact I|exact H]].
  - eapply CS; eauto.
  - unfold enter_charge_queueing, rbind in H. repeat dmatch H. eapply NC_queue; eauto.
  - unfold enter_dispatch_base in H. repeat dmatch H. apply NC_plain; [exact I|exact H].
  - unfold enter_reserve_base, rbind in H. repeat dmatch H. eapply NC_stall; eauto.
  - unfold enter_charging_base, rbind in H. repeat dmatch H. eapply NC_base_plug; eauto.
Qed.

Section Closure.
(* V k old w: the record `old` found under k may be replaced by w; E: the events that may be filed; A: the requests that may be
   admitted; T: whether the clock may move *)
Variables (V : id -> Vehicle -> Vehicle -> Prop) (E : Event -> Prop) (A : Request -> Prop) (T : Prop).
Inductive Write : Sim -> Sim -> Prop :=
| W_modv s k old w s' : find k (vehicles s) = Some old -> V k old w -> modify_vehicle env s w = Ok s' -> Write s s'
| W_mods s k old x s' : find k (stations s) = Some old -> ssim x old -> modify_station env s x = Ok s' -> Write s s'
| W_modb s k old x s' : find k (bases s) = Some old -> bsim x old -> modify_base env s x = Ok s' -> Write s s'
| W_modr s k old x s' : find k (requests s) = Some old -> RRel old x -> modify_request env s x = Ok s' -> Write s s'
| W_remr s k s' : remove_request env s k = Ok s' -> Write s s'
| W_addr s r s' : A r -> add_request env s r = Ok s' -> Write s s'
| W_emit s e : E e -> Write s (emit s e)
| W_applied s a : Write s (s <| applied := a |>)
| W_tick s : T -> Write s (sim_tick s).
Lemma Write_effect s s' : Write s s' ->
  (vehicles s' = vehicles s \/ exists k old w, find k (vehicles s) = Some old /\ V k old w /\ vehicles s' = PM.add (v_id w) w (vehicles s)) /\
  (stations s' = stations s \/ exists k old x, find k (stations s) = Some old /\ ssim x old /\ stations s' = PM.add (s_id x) x (stations s)) /\
  (bases s' = bases s \/ exists k old x, find k (bases s) = Some old /\ bsim x old /\ bases s' = PM.add (b_id x) x (bases s)) /\
  (requests s' = requests s \/
   (exists k old x, find k (requests s) = Some old /\ RRel old x /\ requests s' = PM.add (r_id x) x (requests s)) \/
   (exists k, requests s' = PM.remove k (requests s)) \/ (exists r, A r /\ requests s' = PM.add (r_id r) r (requests s))) /\
  (log s' = log s \/ exists e, E e /\ log s' = e :: log s) /\
  dt s' = dt s /\ (sim_time s' = sim_time s \/ T /\ sim_time s' = (sim_time s + dt s)%Z).
Proof.
  destruct 1 as [? ? ? ? ? ? ? M|? ? ? ? ? ? ? M|? ? ? ? ? ? ? M|? ? ? ? ? ? ? M|? ? ? M|? ? ? ? M| | |].
  - apply modify_vehicle_spec in M. destruct M as (_ & -> & -> & -> & -> & -> & -> & _ & ->). repeat split; eauto 9.
  - apply modify_station_spec in M. destruct M as (_ & -> & -> & -> & -> & -> & -> & _ & ->). repeat split; eauto 9.
  - apply modify_base_spec in M. destruct M as (_ & -> & -> & -> & -> & -> & -> & _ & ->). repeat split; eauto 9.
  - apply modify_request_spec in M. destruct M as (_ & -> & -> & -> & -> & -> & -> & _ & ->). repeat split; eauto 9.
  - apply remove_request_spec in M. destruct M as (-> & -> & -> & -> & -> & -> & _ & ->). repeat split; eauto 9.
  - apply add_request_spec in M. destruct M as (-> & -> & -> & -> & -> & -> & _ & ->). repeat split; eauto 9.
  - cbn. repeat split; eauto 6.
  - cbn. repeat split; auto.
  - unfold sim_tick. cbn. repeat split; auto.
Qed.
Lemma Write_vehicles s s' : Write s s' -> vehicles s' = vehicles s \/
  exists k old w, find k (vehicles s) = Some old /\ V k old w /\ vehicles s' = PM.add (v_id w) w (vehicles s).
Proof. intro W. apply (Write_effect _ _ W). Qed.
Lemma Write_stations s s' : Write s s' -> stations s' = stations s \/
  exists k old x, find k (stations s) = Some old /\ ssim x old /\ stations s' = PM.add (s_id x) x (stations s).
Proof. intro W. apply (Write_effect _ _ W). Qed.
Lemma Write_bases s s' : Write s s' -> bases s' = bases s \/
  exists k old x, find k (bases s) = Some old /\ bsim x old /\ bases s' = PM.add (b_id x) x (bases s).
Proof. intro W. apply (Write_effect _ _ W). Qed.
Lemma Write_log s s' : Write s s' -> log s' = log s \/ exists e, E e /\ log s' = e :: log s.
Proof. intro W. apply (Write_effect _ _ W). Qed.
Lemma Write_clock s s' : Write s s' -> dt s' = dt s /\ (sim_time s' = sim_time s \/ T /\ sim_time s' = (sim_time s + dt s)%Z).
Proof. intro W. apply (Write_effect _ _ W). Qed.

Inductive Writes : Sim -> Sim -> Prop :=
| Ws_refl s : Writes s s
| Ws_step s s' s'' : Write s s' -> Writes s' s'' -> Writes s s''.
Lemma Writes_trans a b c : Writes a b -> Writes b c -> Writes a c.
Proof. induction 1; intros; [assumption|]. econstructor; eauto. Qed.
Lemma Writes_one s s' : Write s s' -> Writes s s'.
Proof. intro. econstructor; [eassumption|constructor]. Qed.
Theorem Writes_lift (R : Sim -> Sim -> Prop) : (forall s, R s s) -> (forall a b c, R a b -> R b c -> R a c) ->
  (forall s s', Write s s' -> R s s') -> forall s s', Writes s s' -> R s s'.
Proof. intros Rr Rt Rw s s'. induction 1; [apply Rr|]. eapply Rt; [apply Rw; eassumption|assumption]. Qed.
Lemma Writes_dt s s' : Writes s s' -> dt s' = dt s.
Proof. apply (Writes_lift (fun a b => dt b = dt a)); [reflexivity|intros; congruence|]. intros a b W. apply (Write_clock _ _ W). Qed.
Lemma Writes_fold {X} (f : Sim -> X -> Sim) (l : list X) : (forall s x, Writes s (f s x)) -> forall s, Writes s (fold_left f l s).
Proof. intro Hf. induction l as [|x l IH]; intro s; cbn; [constructor|]. eapply Writes_trans; [apply Hf|apply IH]. Qed.
End Closure.

Lemma Writes_mono (V V' : id -> Vehicle -> Vehicle -> Prop) (E E' : Event -> Prop) (A A' : Request -> Prop) (T T' : Prop) s s' :
  (forall k a b, V k a b -> V' k a b) -> (forall e, E e -> E' e) -> (forall r, A r -> A' r) -> (T -> T') ->
  Writes V E A T s s' -> Writes V' E' A' T' s s'.
Proof.
  intros HV HE HA HT. induction 1; [constructor|]. econstructor; [|eassumption].
  destruct H; [eapply W_modv|eapply W_mods|eapply W_modb|eapply W_modr|eapply W_remr|eapply W_addr|eapply W_emit|eapply W_applied|eapply W_tick]; eauto.
Qed.

(* the vehicle-write classes of the walk: vehicle vid's own activity; anybody's activity; activities and drivers *)
Definition on (vid : id) : id -> Vehicle -> Vehicle -> Prop := fun k old w => k = vid /\ VRel old w.
Definition anyone : id -> Vehicle -> Vehicle -> Prop := fun _ => VRel.
Definition anyhow : id -> Vehicle -> Vehicle -> Prop := fun _ => VWrite.
Definition nothing {X} : X -> Prop := fun _ => False.

Section Walk.
Variables (E : Event -> Prop) (A : Request -> Prop) (T : Prop).
Lemma anvs_writes s vid st s' : apply_new_vehicle_state env s vid st = Ok s' -> Writes (on vid) E A T s s'.
Proof. unfold apply_new_vehicle_state. intro H. dmatch H. apply Writes_one. eapply W_modv; eauto. split; [reflexivity|apply VR_state]. Qed.
Lemma emit_writes V s e : E e -> Writes V E A T s (emit s e).
Proof. intro. apply Writes_one, W_emit. assumption. Qed.
Lemma mods_writes V s k old x s' : find k (stations s) = Some old -> ssim x old -> modify_station env s x = Ok s' -> Writes V E A T s s'.
Proof. intros. apply Writes_one. eapply W_mods; eauto. Qed.
Lemma modb_writes V s k old x s' : find k (bases s) = Some old -> bsim x old -> modify_base env s x = Ok s' -> Writes V E A T s s'.
Proof. intros. apply Writes_one. eapply W_modb; eauto. Qed.

(* vs_exit: gives back what the activity holds; writes no vehicle, files nothing *)
Lemma exit_writes V vs nx s s' : vs_exit env vs nx s = Ok s' -> Writes V E A T s s'.
Proof.
  destruct vs as [vid st]. intro H. destruct (exit_cases _ _ _ _ _ H); try constructor.
  - apply Writes_one. eapply W_modr; eauto. constructor.
  - eapply mods_writes; eauto using ssu_sim.
  - eapply mods_writes; eauto using ssu_sim.
  - eapply modb_writes; eauto using return_stall_sim.
  - match goal with M : modify_base _ _ _ = Ok _, F : find _ (stations s) = Some _ |- _ =>
      pose proof M as M'; apply modify_base_spec in M'; destruct M' as (_ & _ & _ & S & _); rewrite <- S in F end.
    eapply Writes_trans; [eapply modb_writes; eauto using return_stall_sim|eapply mods_writes; eauto using ssu_sim].
Qed.
Lemma pick_up_writes s vid rid s' : (forall t d val, E (EvPickup rid vid t d val)) -> pick_up_trip env s vid rid = Ok s' -> Writes (on vid) E A T s s'.
Proof.
  unfold pick_up_trip, rbind. intros HE H. repeat dmatch H.
  eapply Ws_step; [eapply W_modv; eauto; split; [reflexivity|apply VR_pay]|].
  eapply Ws_step; [apply W_emit; apply HE|]. apply Writes_one. eapply W_remr; eauto.
Qed.

(* vs_enter: checks the new activity's holdings out, then writes the vehicle's state; only a trip being served files an event *)
Lemma enter_writes vid nx s s' : (forall e, enter_files vid nx e -> E e) -> vs_enter env (vid, nx) s = Ok s' -> Writes (on vid) E A T s s'.
Proof.
  intros HE H. destruct (enter_cases _ _ _ _ H).
  - eapply anvs_writes; eauto.
  - eapply Ws_step; [eapply W_modr; eauto; constructor|eapply anvs_writes; eauto].
  - eapply Writes_trans; [eapply pick_up_writes; eauto; intros; apply HE; cbn; auto|eapply anvs_writes; eauto].
  - eapply Writes_trans; [eapply mods_writes; eauto using ssou_sim|eapply anvs_writes; eauto].
  - eapply Writes_trans; [eapply mods_writes; eauto using ssu_sim|eapply anvs_writes; eauto].
  - eapply Writes_trans; [eapply modb_writes; eauto using checkout_stall_sim|eapply anvs_writes; eauto].
  - match goal with M : modify_base _ _ _ = Ok _, F : find _ (stations s) = Some _ |- _ =>
      pose proof M as M'; apply modify_base_spec in M'; destruct M' as (_ & _ & _ & S & _); rewrite <- S in F end.
    eapply Writes_trans; [eapply modb_writes; eauto using checkout_stall_sim|].
    eapply Writes_trans; [eapply mods_writes; eauto using ssou_sim|eapply anvs_writes; eauto].
Qed.
Lemma transition_writes s vid st nx s' : (forall e, enter_files vid nx e -> E e) ->
  transition env s (vid, st) (vid, nx) = Ok s' -> Writes (on vid) E A T s s'.
Proof.
  unfold transition, transition_previous_to_next. intros HE H. repeat dmatch H. inv H.
  eapply Writes_trans; [eapply exit_writes|eapply enter_writes]; eauto.
Qed.

Lemma go_out_writes s vid s' : go_out_of_service_on_empty env s vid = Ok s' -> Writes (on vid) E A T s s'.
Proof.
  unfold go_out_of_service_on_empty. destruct (find vid (vehicles s)) as [v|]; [|apply anvs_writes].
  destruct (vs_exit env (vid, v_state v) (vid, OutOfService) s) eqn:X; intro H; try (eapply anvs_writes; eassumption).
  eapply Writes_trans; [eapply exit_writes; eauto|eapply anvs_writes; eauto].
Qed.
Lemma move_writes s vid s' : (forall d t, E (EvMove vid d t)) -> move env s vid = Ok s' -> Writes (on vid) E A T s s'.
Proof.
  unfold move. intros HE H. repeat dmatch H.
  - inv H. apply Writes_one. eapply W_modv; eauto. split; [reflexivity|apply VR_state].
  - eapply go_out_writes; eauto.
  - inv H. eapply Ws_step; [apply W_emit; apply HE|]. apply Writes_one. eapply W_modv; eauto. split; [reflexivity|apply VR_move].
Qed.
Lemma charge_writes s vid sid cid s' : (forall et k p t, E (EvCharge vid sid cid et k p t)) -> charge env s vid sid cid = Ok s' -> Writes (on vid) E A T s s'.
Proof.
  unfold charge. intros HE H. repeat dmatch H.
  all: match goal with M : modify_vehicle _ _ _ = Ok _, F : find _ (stations _) = Some _ |- _ =>
         pose proof M as M'; apply modify_vehicle_spec in M'; destruct M' as (_ & _ & S & _); rewrite <- S in F end.
  all: eapply Ws_step; [eapply W_modv; eauto; split; [reflexivity|]|].
  all: try (match goal with X : mech_add_energy ?m ?v ?c ?t = (?w, _) |- VRel ?v (veh_send_payment ?w ?p) =>
              replace w with (fst (mech_add_energy m v c t)) by (rewrite X; reflexivity); apply VR_charge end).
  all: eapply Ws_step; [apply W_emit; apply HE|]; eapply mods_writes; eauto using charged_station_sim.
Qed.
(* _perform_update: vehicle vid's record, the station it charges at and the log change; a vehicle that runs empty also gives back
   what its activity holds (go_out_of_service_on_empty) *)
Lemma perform_writes vid st s s' : (forall e, update_files vid st e -> E e) -> perform_update env vid st s = Ok s' -> Writes (on vid) E A T s s'.
Proof.
  intros HE.
  assert (Mv : forall a b, move env a vid = Ok b -> Writes (on vid) E A T a b) by (intros; eapply move_writes; eauto; intros; apply HE; reflexivity).
  assert (Ch : forall a sid cid b, charge env a vid sid cid = Ok b -> Writes (on vid) E A T a b) by (intros; eapply charge_writes; eauto; intros; apply HE; reflexivity).
  destruct st; cbn [perform_update]; intro H; try (eapply Mv; eassumption); try (inv H; constructor).
  - repeat dmatch H. apply Writes_one. eapply W_modv; eauto. split; [reflexivity|apply VR_idle].
  - destruct (move env s vid) as [a| |] eqn:M; try discriminate. eapply Writes_trans; [eapply Mv; eauto|].
    repeat dmatch H; try (inv H; constructor). unfold drop_off_trip in H. repeat dmatch H. inv H. apply emit_writes, HE. cbn. auto.
  - apply charge_unless_full_cases in H. destruct H as [->|H]; [constructor|eapply Ch; eauto].
  - repeat dmatch H. apply Writes_one. eapply W_modv; eauto. split; [reflexivity|apply VR_idle0].
  - repeat dmatch H. eapply Ch; eauto.
Qed.
End Walk.

(* the operations of a step: any vehicle, any event; admissions and the clock as the operation says *)
Notation everything := (fun _ => True).
Section Ops.
Variables (A : Request -> Prop) (T : Prop).
Lemma weaken (V : id -> Vehicle -> Vehicle -> Prop) vid s s' : (forall a b, VRel a b -> V vid a b) -> Writes (on vid) everything A T s s' -> Writes V everything A T s s'.
Proof. intro HV. apply Writes_mono; auto. intros k a b [-> R]. auto. Qed.

Lemma vs_update_writes vid st s s' : vs_update env vid st s = Ok s' -> Writes (on vid) everything A T s s'.
Proof.
  unfold vs_update. intro H. repeat dmatch H.
  - eapply Writes_trans; [eapply transition_writes; eauto|eapply perform_writes; eauto].
  - eapply perform_writes; eauto.
Qed.
Lemma step_vehicle_writes s vs : Writes (on (fst vs)) everything A T s (step_vehicle env s vs).
Proof. unfold step_vehicle. destruct (vs_update env (fst vs) (snd vs) s) eqn:X; try constructor. eapply vs_update_writes; eauto. Qed.
Lemma apply_phase2_writes s i vid st nx : Writes (on vid) everything A T s (apply_phase2 env s (i, ((vid, st), (vid, nx)))).
Proof.
  unfold apply_phase2. cbn [fst snd]. destruct (transition env s (vid, st) (vid, nx)) eqn:X; try constructor.
  eapply Writes_trans; [eapply transition_writes; eauto|apply Writes_one, W_applied].
Qed.

Lemma cancel_one_writes V s rid : Writes V everything A T s (cancel_one env s rid).
Proof.
  unfold cancel_one. destruct (find rid (requests s)); [|constructor]. destruct (Z.ltb _ _); [constructor|].
  destruct (remove_request env s rid) eqn:X; try constructor. eapply Ws_step; [eapply W_remr; eauto|]. apply emit_writes. exact I.
Qed.
Lemma admit_request_writes V s r : A r -> Writes V everything A T s (admit_request env s r).
Proof.
  intro HA. unfold admit_request. repeat (match goal with |- context [if ?c then _ else _] => destruct c end; try constructor).
  destruct (add_request env s r) eqn:X; try constructor. eapply Ws_step; [eapply W_addr; eauto|]. apply emit_writes. exact I.
Qed.
Lemma admit_requests_writes V rows : forall s, (forall r, In r rows -> A r) -> Writes V everything A T s (admit_requests env s rows).
Proof.
  unfold admit_requests. induction rows as [|r rows IH]; intros s HA; cbn [fold_left]; [constructor|].
  eapply Writes_trans; [apply admit_request_writes|apply IH]; auto using in_eq, in_cons.
Qed.
Lemma update_station_prices_writes V s sid prices : Writes V everything A T s (update_station_prices env s sid prices).
Proof.
  unfold update_station_prices. destruct (find sid (stations s)) eqn:F; [|constructor].
  destruct (modify_station env s _) eqn:X; try constructor. eapply mods_writes; eauto using station_update_prices_sim.
Qed.
Lemma driver_update_writes rt s v s' : driver_update env rt s v = Ok s' -> Writes anyhow everything A T s s'.
Proof.
  unfold driver_update, apply_new_driver_state. intro H. repeat dmatch H; try (inv H; constructor).
  all: eapply Ws_step; [apply W_emit; exact I|]; apply Writes_one; eapply W_modv; [eassumption|apply VW_driver|eassumption].
Qed.
Lemma Writes_fold_restart {X} V E (f : Sim -> X -> res Sim) s0 (l : list X) : (forall s x s', f s x = Ok s' -> Writes V E A T s s') ->
  forall acc, Writes V E A T s0 acc -> Writes V E A T s0 (fold_left (fun acc x => match f acc x with Ok s' => s' | _ => s0 end) l acc).
Proof.
  intro Hf. induction l as [|x l IH]; intros acc Hacc; cbn [fold_left]; [exact Hacc|]. apply IH.
  destruct (f acc x) eqn:Fx; try constructor. eapply Writes_trans; [exact Hacc|eauto].
Qed.
End Ops.

(* only the driver updates write driver states *)
Definition op_writes (o : Op) : id -> Vehicle -> Vehicle -> Prop := match o with OpDrivers _ => anyhow | _ => anyone end.
Theorem step_op_writes s o : Writes (op_writes o) everything (fun r => exists rows, o = OpAdmit rows /\ In r rows) (o = OpTick) s (step_op env s o).
Proof.
  pose proof (fun vid => weaken (fun r => exists rows, o = OpAdmit rows /\ In r rows) (o = OpTick) anyone vid) as Wk.
  destruct o; cbn [step_op op_writes].
  - unfold apply_instructions. apply Writes_fold. intros s0 [i r]. unfold apply_phase2.
    destruct (transition env s0 (fst r) (snd r)) eqn:X; try constructor. destruct r as [[pv pst] [nv nst]]. cbn [fst snd] in X.
    eapply Writes_trans; [|apply Writes_one, W_applied].
    unfold transition, transition_previous_to_next in X. repeat dmatch X. inv X.
    eapply Writes_trans; [eapply exit_writes; eauto|]. eapply Wk; [exact (fun _ _ X => X)|]. eapply enter_writes; eauto.
  - unfold perform_vehicle_state_updates. apply Writes_fold. intros s0 v. eapply Wk; [exact (fun _ _ X => X)|]. apply step_vehicle_writes.
  - unfold cancel_requests. apply Writes_fold. intros. apply cancel_one_writes.
  - apply admit_requests_writes. eauto.
  - apply Writes_fold. intros. apply update_station_prices_writes.
  - unfold perform_driver_state_updates. apply Writes_fold_restart; [|constructor]. intros. eapply driver_update_writes; eauto.
  - apply Writes_one, W_tick. reflexivity.
  - apply Writes_one, W_applied.
Qed.
Lemma op_writes_rel o k a b : (forall rt, o <> OpDrivers rt) -> op_writes o k a b -> VRel a b.
Proof. destruct o; cbn; auto. intro N. destruct (N range_target eq_refl). Qed.
Lemma op_writes_any o k a b : op_writes o k a b -> VWrite a b.
Proof. destruct o; cbn; auto using VW_rel. Qed.

Lemma go_out_cases s vid v s' : find vid (vehicles s) = Some v -> go_out_of_service_on_empty env s vid = Ok s' ->
  exists s1, (vs_exit env (vid, v_state v) (vid, OutOfService) s = Ok s1 \/ s1 = s) /\ apply_new_vehicle_state env s1 vid OutOfService = Ok s'.
Proof.
  unfold go_out_of_service_on_empty. intros -> H. destruct (vs_exit env (vid, v_state v) (vid, OutOfService) s) as [s1| |]; eauto.
Qed.
Lemma cancel_one_cases s rid : cancel_one env s rid = s \/
  exists r a, find rid (requests s) = Some r /\ (r_dep r + e_cancel env <= sim_time s)%Z /\ remove_request env s rid = Ok a /\
              cancel_one env s rid = emit a (EvCancel rid (r_dep r) (sim_time s)).
Proof.
  unfold cancel_one. destruct (find rid (requests s)) as [r|]; [|auto]. destruct (Z.ltb_spec (sim_time s) (r_dep r + e_cancel env)); [auto|].
  destruct (remove_request env s rid) as [a| |]; eauto 7.
Qed.
Lemma admit_request_cases s r : admit_request env s r = s \/
  exists a, add_request env s r = Ok a /\ admit_request env s r = emit a (EvAdd (r_id r) (r_dep r)).
Proof.
  unfold admit_request. repeat (match goal with |- context [if ?c then _ else _] => destruct c end; auto).
  destruct (add_request env s r) as [a| |]; eauto.
Qed.
Lemma update_station_prices_cases s sid prices : update_station_prices env s sid prices = s \/
  exists st, find sid (stations s) = Some st /\ modify_station env s (station_update_prices st prices) = Ok (update_station_prices env s sid prices).
Proof.
  unfold update_station_prices. destruct (find sid (stations s)) as [st|]; [|auto].
  destruct (modify_station env s (station_update_prices st prices)) eqn:M; eauto.
Qed.
Lemma driver_update_cases rt s v s' : driver_update env rt s v = Ok s' -> s' = s \/
  exists on cur dr, find (v_id v) (vehicles s) = Some cur /\
    modify_vehicle env (emit s (EvSchedule (v_id v) on (sim_time s))) (cur <| v_driver := dr |>) = Ok s'.
Proof.
  unfold driver_update, apply_new_driver_state. intro H. destruct (v_driver v).
  - inv H. auto.
  - destruct (sched_active env sched (sim_time s)) as [[|]|]; try (inv H; auto; fail).
    destruct (find (v_id v) (vehicles s)) as [cur|] eqn:F; [|discriminate]. cbn in H. rewrite F in H. eauto 7.
  - destruct (find (v_id v) (vehicles s)) as [cur|] eqn:F; [|discriminate].
    destruct (sched_active env sched (sim_time s)) as [[|]|]; try (inv H; auto; fail). cbn in H. rewrite F in H. eauto 7.
Qed.
End W.
