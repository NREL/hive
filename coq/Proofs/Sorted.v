(* Proofs/Sorted.v — the model's sort (insertion sort by a boolean order) is a sorted permutation; sorted_elements
   enumerates exactly the bindings of a map in ascending key order.  (Python: sorted(..., key=id) over a Map.) *)
From Hive.Base Require Import Prelude.
From Coq Require Import Sorting.Permutation Sorting.Sorted SetoidList.

Section Sort.
  Context {A : Type} (le : A -> A -> bool).
  Lemma insert_by_perm x l : Permutation (insert_by le x l) (x :: l).
  Proof.
    induction l as [|y t IH]; cbn; [reflexivity|]. destruct (le x y); [reflexivity|].
    rewrite IH. apply perm_swap.
  Qed.
  Lemma sort_by_perm l : Permutation (sort_by le l) l.
  Proof. induction l as [|x t IH]; cbn; [reflexivity|]. unfold sort_by in *. cbn. rewrite insert_by_perm. constructor. exact IH. Qed.
  Lemma sort_by_In x l : In x (sort_by le l) <-> In x l.
  Proof. split; apply Permutation_in; [|symmetry]; apply sort_by_perm. Qed.

  Hypothesis le_total : forall a b, le a b = true \/ le b a = true.
  Hypothesis le_trans : forall a b c, le a b = true -> le b c = true -> le a c = true.
  Definition sorted_by (l : list A) : Prop := StronglySorted (fun a b => le a b = true) l.
  Lemma insert_by_sorted x l : sorted_by l -> sorted_by (insert_by le x l).
  Proof.
    induction 1 as [|y t Hs IH Hall]; cbn.
    - constructor; constructor.
    - destruct (le x y) eqn:E.
      + constructor; [constructor; assumption|]. constructor; [exact E|].
        rewrite Forall_forall in *. intros z Hz. eapply le_trans; eauto.
      + constructor; [exact IH|]. rewrite Forall_forall in *. intros z Hz.
        apply (Permutation_in _ (insert_by_perm x t)) in Hz. destruct Hz as [<-|Hz]; [|auto].
        destruct (le_total x y); congruence.
  Qed.
  Lemma sort_by_sorted l : sorted_by (sort_by le l).
  Proof. induction l as [|x t IH]; cbn; [constructor|]. apply insert_by_sorted. exact IH. Qed.
End Sort.

Lemma sorted_elements_In {A} (m : pmap A) k v : In (k, v) (sorted_elements m) <-> PM.find k m = Some v.
Proof.
  unfold sorted_elements. rewrite sort_by_In. split.
  - apply PM.elements_complete.
  - apply PM.elements_correct.
Qed.
Lemma sorted_vals_In {A} (m : pmap A) v : In v (sorted_vals m) <-> exists k, PM.find k m = Some v.
Proof.
  unfold sorted_vals. rewrite in_map_iff. split.
  - intros [[k v'] [E I]]. cbn in E. subst. exists k. apply sorted_elements_In. exact I.
  - intros [k F]. exists (k, v). split; [reflexivity|]. apply sorted_elements_In. exact F.
Qed.
Lemma sorted_keys_In {A} (m : pmap A) k : In k (sorted_keys m) <-> PM.In k m.
Proof.
  unfold sorted_keys. rewrite in_map_iff. split.
  - intros [[k' v] [E I]]. cbn in E. subst. exists v. apply PM.find_2. apply sorted_elements_In. exact I.
  - intros [v F]. exists (k, v). split; [reflexivity|]. apply sorted_elements_In. apply PM.find_1. exact F.
Qed.
Lemma sorted_elements_keys_NoDup {A} (m : pmap A) : NoDup (sorted_keys m).
Proof.
  unfold sorted_keys, sorted_elements.
  eapply Permutation_NoDup; [apply Permutation_map; symmetry; apply sort_by_perm|].
  pose proof (PM.elements_3w m) as H. induction H as [|[k v] l Hn Hd IH]; cbn; constructor; auto.
  intro I. apply Hn. apply in_map_iff in I. destruct I as [[k' v'] [E I]]. cbn in E. subst.
  apply InA_alt. exists (k, v'). split; [reflexivity|exact I].
Qed.
(* Pos.leb is a total order: the three facts that sorting bindings by key asks for *)
Lemma pos_leb_total a b : Pos.leb a b = true \/ Pos.leb b a = true.
Proof. destruct (Pos.leb_spec a b) as [_|L]; [left; reflexivity|right; apply Pos.leb_le, Pos.lt_le_incl, L]. Qed.
Lemma pos_leb_trans a b c : Pos.leb a b = true -> Pos.leb b c = true -> Pos.leb a c = true.
Proof. intros H1 H2. apply Pos.leb_le in H1, H2. apply Pos.leb_le. exact (Pos.le_trans _ _ _ H1 H2). Qed.
Lemma pos_leb_antisym a b : Pos.leb a b = true -> Pos.leb b a = true -> a = b.
Proof. intros H1 H2. apply Pos.leb_le in H1, H2. exact (Pos.le_antisym _ _ H1 H2). Qed.
Lemma sorted_elements_ascending {A} (m : pmap A) :
  StronglySorted (fun a b : positive * A => Pos.leb (fst a) (fst b) = true) (sorted_elements m).
Proof. apply sort_by_sorted; intros; [apply pos_leb_total|eapply pos_leb_trans; eassumption]. Qed.

Lemma NoDup_app_inv {A} (a b : list A) : NoDup (a ++ b) -> NoDup a /\ forall x, In x b -> ~ In x a.
Proof.
  induction a as [|y a IH]; cbn; intro H; [split; [constructor|auto]|]. inversion H as [|? ? Nin Nd]; subst. destruct (IH Nd) as [Na Hb].
  split; [constructor; [intro I; apply Nin, in_or_app; auto|exact Na]|].
  intros x Ix [->|I]; [apply Nin, in_or_app; auto|exact (Hb x Ix I)].
Qed.
