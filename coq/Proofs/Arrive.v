(* Proofs/Arrive.v — C06, last clause: a travelling vehicle leaves the travelling activity within one step of arriving.
   A vehicle whose route is exhausted when its update comes has reached the terminal condition of every travelling activity;
   its update, if it goes through, is the default transition followed by the first update of the new activity, and the new
   activity is of a different kind (Repositioning -> Idle, DispatchTrip -> ServicingTrip / Idle, ServicingTrip -> Idle,
   DispatchStation -> ChargingStation / ChargeQueueing, DispatchBase -> ReserveBase / Idle), or OutOfService. *)
From Hive.Base Require Import Prelude.
From Hive.Model Require Import Types KernelBase SimOps States Step.
From Hive.Gen Require Import Kernels.
From Hive.Proofs Require Import SimFacts VehFrame Macro DropInv.

Section A.
Variable env : Env.

Lemma kind_update_route st r : state_kind (update_route st r) = state_kind st.
Proof. destruct st; reflexivity. Qed.

(* the first update of an activity keeps its kind, or the vehicle runs out of energy *)
Lemma perform_kind s vid v s' : vkeys s -> find vid (vehicles s) = Some v -> perform_update env vid (v_state v) s = Ok s' ->
  exists w, find vid (vehicles s') = Some w /\ (v_state w = OutOfService \/ state_kind (v_state w) = state_kind (v_state v)).
Proof.
  intros K Fv H. destruct (perform_update_state env _ _ _ _ _ K Fv eq_refl H) as (w & Fw & [O|[(r & E)|(d & E0 & E)]]); exists w; (split; [exact Fw|]).
  - left. exact O.
  - right. rewrite E. apply kind_update_route.
  - right. rewrite E, E0. reflexivity.
Qed.

Definition travelling (st : VState) : bool := match state_route st with Some _ => true | None => false end.

Theorem arrived_vehicle_leaves s vid v s' : vkeys s -> find vid (vehicles s) = Some v -> state_route (v_state v) = Some [] ->
  vs_update env vid (v_state v) s = Ok s' ->
  exists w, find vid (vehicles s') = Some w /\ state_kind (v_state w) <> state_kind (v_state v).
Proof.
  intros K Fv R H.
  assert (T : terminal env vid (v_state v) s = true) by (destruct (v_state v); cbn in R; try discriminate; injection R as ->; reflexivity).
  destruct (vs_update_cases env _ _ _ _ H) as [[Tf _]|(_ & nx & s1 & v1 & D & Tr & F1 & U)]; [congruence|].
  assert (K1 : vkeys s1) by (apply (transition_vonly env _ _ _ _ _ Tr K)).
  destruct (perform_kind s1 vid v1 s' K1 F1 U) as (w & Fw & C). exists w. split; [exact Fw|].
  (* the new activity is of another kind *)
  assert (Dk : state_kind (v_state v1) <> state_kind (v_state v)).
  { destruct (enter_state_alt_of_transition env s vid _ nx s1 v1 K Tr F1) as [E|E].
    - rewrite E. destruct (v_state v); cbn in R; try discriminate; cbn in D; repeat dmatch D; inv D; cbn; discriminate.
    - destruct (v_state v1); cbn in E; try discriminate; destruct (v_state v); cbn in R; try discriminate; cbn; discriminate. }
  destruct C as [O|Kd]; [|rewrite Kd; exact Dk].
  rewrite O. destruct (v_state v); cbn in R; try discriminate; cbn; discriminate.
Qed.
End A.
