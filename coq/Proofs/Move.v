(* Proofs/Move.v — C06 / C19 / C04: what vehicle_state_ops.move does to the state: by cases on its three branches (`move_cases`), and as the three
   outcomes of `move_outcome` (`move_spec`). *)
From Hive.Base Require Import Prelude.
From Hive.Model Require Import Types KernelBase SimOps States Step.
From Hive.Gen Require Import Kernels.
From Hive.Proofs Require Import SimFacts.
Local Open Scope Q_scope.

Section S.
Variable env : Env.

Inductive move_outcome (s : Sim) (vid : id) (s' : Sim) : Prop :=
| MO_nothing_to_drive v route tr :     (* the route is empty / a loop / no time was used: only the route is cleared *)
    find vid (vehicles s) = Some v -> state_route (v_state v) = Some route -> traverse env route (dt s) = Ok tr -> rt_exp tr = [] ->
    vehicles s' = PM.add (v_id v) (v <| v_state := update_route (v_state v) [] |>) (vehicles s) -> log s' = log s ->
    move_outcome s vid s'
| MO_empty v m route tr :              (* not enough energy for this movement: the vehicle stops where it is *)
    find vid (vehicles s) = Some v -> e_mech env (v_mech v) = Some m -> state_route (v_state v) = Some route ->
    traverse env route (dt s) = Ok tr -> mech_is_empty m (mech_consume m v (rt_exp tr)) = true ->
    go_out_of_service_on_empty env s vid = Ok s' ->
    move_outcome s vid s'
| MO_moved v m route tr e0 :           (* the normal case *)
    find vid (vehicles s) = Some v -> e_mech env (v_mech v) = Some m -> state_route (v_state v) = Some route ->
    traverse env route (dt s) = Ok tr -> rt_exp tr = e0 :: tl (rt_exp tr) ->
    mech_is_empty m (mech_consume m v (rt_exp tr)) = false ->
    let lastl := last (rt_exp tr) e0 in
    let v2 := (veh_tick_distance ((mech_consume m v (rt_exp tr)) <| v_pos := mkPos (l_id lastl) (l_end lastl) |>) (rt_dist tr))
                <| v_state := update_route (v_state (veh_tick_distance ((mech_consume m v (rt_exp tr)) <| v_pos := mkPos (l_id lastl) (l_end lastl) |>) (rt_dist tr))) (rt_rem tr) |> in
    vehicles s' = PM.add (v_id v2) v2 (vehicles s) ->
    log s' = EvMove vid (v_odo v2 - v_odo v) (sim_time s) :: log s ->
    move_outcome s vid s'.

Lemma moved_fields (m : Mech) v exp p d r w :
  w = (let v1 := veh_tick_distance ((mech_consume m v exp) <| v_pos := p |>) d in v1 <| v_state := update_route (v_state v1) r |>) ->
  v_id w = v_id v /\ v_state w = update_route (v_state v) r /\ v_mem w = v_mem v /\ v_driver w = v_driver v /\ v_mech w = v_mech v /\
  v_pos w = p /\ v_odo w = v_odo v + d.
Proof. intros ->. unfold mech_consume. destruct (m_kind m); cbn; repeat split; reflexivity. Qed.

(* move by cases, with the vehicle it writes as a variable w; moved_fields says what w holds and modify_vehicle_spec
   what the write leaves alone *)
Lemma move_cases s vid s' : move env s vid = Ok s' ->
  exists v m route tr,
    find vid (vehicles s) = Some v /\ e_mech env (v_mech v) = Some m /\ state_route (v_state v) = Some route /\
    traverse env route (dt s) = Ok tr /\
    ((rt_exp tr = [] /\ modify_vehicle env s (v <| v_state := update_route (v_state v) [] |>) = Ok s')
     \/ (mech_is_empty m (mech_consume m v (rt_exp tr)) = true /\ go_out_of_service_on_empty env s vid = Ok s')
     \/ (exists e0 w,
          rt_exp tr = e0 :: tl (rt_exp tr) /\ mech_is_empty m (mech_consume m v (rt_exp tr)) = false /\
          let lastl := last (rt_exp tr) e0 in
          w = (let v1 := veh_tick_distance ((mech_consume m v (rt_exp tr)) <| v_pos := mkPos (l_id lastl) (l_end lastl) |>) (rt_dist tr) in
               v1 <| v_state := update_route (v_state v1) (rt_rem tr) |>) /\
          modify_vehicle env (emit s (EvMove vid (v_odo w - v_odo v) (sim_time s))) w = Ok s')).
Proof.
  cbv beta delta [move]. intro H.
  destruct (find vid (vehicles s)) as [v|]; [|discriminate].
  destruct (e_mech env (v_mech v)) as [m|] eqn:Em; [|discriminate].
  destruct (state_route (v_state v)) as [route|] eqn:Sr; [|discriminate].
  destruct (traverse env route (dt s)) as [tr| |] eqn:T; try discriminate.
  exists v, m, route, tr. do 4 (split; [reflexivity || assumption|]).
  destruct (rt_exp tr) as [|e0 rest].
  - left. split; [reflexivity|]. destruct (modify_vehicle env s _) as [s1| |]; try discriminate. exact H.
  - cbv zeta in H. destruct (mech_is_empty m _) eqn:E; [right; left; split; [reflexivity|exact H]|].
    right; right. remember (set v_state _ (veh_tick_distance _ _)) as w eqn:Ew in H.
    exists e0, w. do 2 (split; [reflexivity|]). cbv zeta. split; [exact Ew|].
    destruct (modify_vehicle env _ w) as [s1| |]; try discriminate. exact H.
Qed.

Lemma move_spec s vid s' : move env s vid = Ok s' -> move_outcome s vid s'.
Proof.
  intro H. destruct (move_cases _ _ _ H) as (v & m & route & tr & Fv & Em & Sr & T & [(X & M)|[(E & G)|(e0 & w & X & E & Ew & M)]]).
  - destruct (modify_vehicle_spec _ _ _ _ M) as (_ & V & _ & _ & _ & _ & _ & _ & L).
    exact (MO_nothing_to_drive _ _ _ v route tr Fv Sr T X V L).
  - exact (MO_empty _ _ _ v m route tr Fv Em Sr T E G).
  - destruct (modify_vehicle_spec _ _ _ _ M) as (_ & V & _ & _ & _ & _ & _ & _ & L).
    cbv zeta in Ew. subst w. exact (MO_moved _ _ _ v m route tr e0 Fv Em Sr T X E V L).
Qed.

Lemma moved_odometer (m : Mech) (v : Vehicle) exp p d st :
  let v2 := (veh_tick_distance ((mech_consume m v exp) <| v_pos := p |>) d) <| v_state := st |> in
  v_odo v2 - v_odo v == d.
Proof. unfold mech_consume. destruct (m_kind m); cbn; lra. Qed.
End S.
