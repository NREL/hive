(* Proofs/ShiftInv.v — C20 over whole steps and histories: after the driver updates of a step every human driver's availability is
   the schedule's verdict at the simulation time at which the step started, and nothing else in the step changes a driver state;
   so during every step of every history a human-driven vehicle is available exactly when the step's start time lies in its
   shift. *)
From Hive.Base Require Import Prelude.
From Hive.Model Require Import Types KernelBase SimOps States Step.
From Hive.Gen Require Import Kernels.
From Hive.Proofs Require Import SimFacts Writes Clock Sorted Queue VehFrame Shift Macro.
Local Open Scope Z_scope.

Section S.
Variable env : Env.
Hypothesis fence_ok : forall g, e_fence env g = true.

(* the driver of vehicle vid follows its schedule as read at time t *)
Definition on_shift_ok (t : Z) (v : Vehicle) : Prop :=
  forall sch a b, driver_sched (v_driver v) = Some sch -> e_sched env sch = Some (a, b) ->
    driver_available (v_driver v) = time_in_range a b (tod t).
Definition shift_ok (s : Sim) (t : Z) : Prop := forall vid v, find vid (vehicles s) = Some v -> on_shift_ok t v.
(* every human driver's schedule id resolves (a run is not started otherwise) *)
Definition scheds_resolve (s : Sim) : Prop :=
  forall vid v sch, find vid (vehicles s) = Some v -> driver_sched (v_driver v) = Some sch -> exists ab, e_sched env sch = Some ab.

Lemma modify_vehicle_total s w old : find (v_id w) (vehicles s) = Some old -> exists s', modify_vehicle env s w = Ok s'.
Proof. apply modify_vehicle_fenced, fence_ok. Qed.

Lemma on_shift_ok_intro t v sch a b : driver_sched (v_driver v) = Some sch -> e_sched env sch = Some (a, b) ->
  driver_available (v_driver v) = time_in_range a b (tod t) -> on_shift_ok t v.
Proof. intros Hs He Av sch0 a0 b0 Hs0 He0. rewrite Hs in Hs0. inv Hs0. rewrite He in He0. inv He0. exact Av. Qed.
(* a driver update of a vehicle that is in the state cannot fail: at worst the schedule is unknown and nothing happens *)
Lemma driver_update_total rt s v : find (v_id v) (vehicles s) = Some v -> exists s', driver_update env rt s v = Ok s'.
Proof.
  intro F. unfold driver_update, apply_new_driver_state. cbn [emit vehicles set]. rewrite F.
  destruct (v_driver v) as [|sc home|sc home tgt]; [eauto|destruct (sched_active env sc (sim_time s)) as [[|]|]..]; eauto; eapply modify_vehicle_total; exact F.
Qed.
(* one driver update, for a vehicle whose record in the current state is v: by `driver_update_spec`, after it the driver follows the
   schedule as read now, whether or not availability flipped *)
Lemma driver_update_one rt s v : find (v_id v) (vehicles s) = Some v ->
  (forall sch, driver_sched (v_driver v) = Some sch -> exists ab, e_sched env sch = Some ab) ->
  exists s', driver_update env rt s v = Ok s' /\ sim_time s' = sim_time s /\
    (forall k, k <> v_id v -> find k (vehicles s') = find k (vehicles s)) /\
    (exists v', find (v_id v) (vehicles s') = Some v' /\ v_id v' = v_id v /\ on_shift_ok (sim_time s) v' /\ driver_sched (v_driver v') = driver_sched (v_driver v)).
Proof.
  intros F Res. destruct (driver_update_total rt s v F) as [s' U]. exists s'. split; [exact U|].
  split; [destruct (Writes_clock env _ _ _ False _ _ (driver_update_writes env (fun _ => True) False _ _ _ _ U)) as [_ [[]|Tm]]; exact Tm|].
  destruct (driver_sched (v_driver v)) as [sch|] eqn:Hs.
  - destruct (Res sch eq_refl) as [[a b] He]. destruct (driver_update_spec env rt s v sch a b s' F Hs He U) as (d' & V & Hd & _). cbv zeta in V, Hd.
    destruct (negb (Bool.eqb (driver_available (v_driver v)) (time_in_range a b (tod (sim_time s))))) eqn:Flip; rewrite V.
    + destruct (Hd eq_refl) as [Av Sc]. split; [intros k N; rewrite find_add; destruct (Pos.eqb_spec k (v_id v)); [contradiction|reflexivity]|].
      eexists. rewrite find_add, Pos.eqb_refl. repeat split; [eapply on_shift_ok_intro; eauto|exact Sc].
    + apply negb_false_iff, Bool.eqb_prop in Flip. split; [auto|]. exists v. repeat split; [exact F|eapply on_shift_ok_intro; eauto|exact Hs].
  - (* no schedule: an autonomous vehicle, which the update leaves alone *)
    assert (s' = s) by (unfold driver_update in U; destruct (v_driver v); try discriminate Hs; inv U; reflexivity). subst s'.
    split; [auto|]. exists v. repeat split; [exact F| |exact Hs]. intros sch a b Hs'. rewrite Hs in Hs'. discriminate.
Qed.

Theorem drivers_follow_schedule rt s0 : vkeys s0 -> scheds_resolve s0 ->
  let s' := perform_driver_state_updates env rt s0 in
  shift_ok s' (sim_time s0) /\ sim_time s' = sim_time s0 /\ vkeys s' /\ scheds_resolve s'.
Proof.
  intros K Res. unfold perform_driver_state_updates. cbv zeta.
  set (f := fun acc v => match driver_update env rt acc v with Ok s' => s' | _ => s0 end).
  (* over the list still to process: its vehicles have the records they started with, every other one follows its schedule *)
  assert (G : forall todo acc, NoDup (map v_id todo) -> sim_time acc = sim_time s0 -> vkeys acc -> scheds_resolve acc ->
            (forall v, In v todo -> find (v_id v) (vehicles acc) = Some v) ->
            (forall k v, find k (vehicles acc) = Some v -> In k (map v_id todo) \/ on_shift_ok (sim_time s0) v) ->
            let r := fold_left f todo acc in shift_ok r (sim_time s0) /\ sim_time r = sim_time s0 /\ vkeys r /\ scheds_resolve r).
  { induction todo as [|v todo IH]; intros acc Nd Tm Ka Ra Ht Hd; cbn [fold_left].
    - repeat split; auto. intros k x F. destruct (Hd k x F) as [[]|O]. exact O.
    - inversion Nd as [|? ? Nin Nd']; subst. pose proof (Ht v (or_introl eq_refl)) as Fa.
      destruct (driver_update_one rt acc v Fa) as (s1 & U & T1 & Oth & (v' & Fv' & Iv' & Ov' & Sv')); [intros sch Hs; eapply Ra; eauto|].
      assert (Ef : f acc v = s1) by (unfold f; rewrite U; reflexivity). rewrite Ef. clear Ef.
      (* a record of s1 is the one written for v, or a record of acc *)
      assert (Rec : forall k x, find k (vehicles s1) = Some x -> k = v_id v /\ x = v' \/ k <> v_id v /\ find k (vehicles acc) = Some x).
      { intros k x Fk. destruct (Pos.eq_dec k (v_id v)) as [->|N]; [left; rewrite Fv' in Fk; inv Fk; auto|right; rewrite Oth in Fk by exact N; auto]. }
      apply IH; [exact Nd'|congruence| | | |].
      + intros k x Fk. destruct (Rec k x Fk) as [[-> ->]|[_ Fx]]; [exact Iv'|apply Ka; exact Fx].
      + intros k x sch Fk Hs. destruct (Rec k x Fk) as [[-> ->]|[_ Fx]]; [rewrite Sv' in Hs|]; eapply Ra; eauto.
      + intros x Ix. rewrite Oth; [apply Ht; right; exact Ix|]. intro E. apply Nin. rewrite <- E. apply in_map. exact Ix.
      + intros k x Fk. destruct (Rec k x Fk) as [[-> ->]|[N Fx]]; [right; rewrite <- Tm; exact Ov'|].
        destruct (Hd k x Fx) as [[E|I]|O]; [congruence|auto|auto]. }
  apply G; [apply (keyed_vals_NoDup v_id), K|reflexivity|exact K|exact Res| |].
  - intros v I. apply sorted_vals_In in I. destruct I as [k F]. rewrite (K _ _ F). exact F.
  - intros k v F. left. apply in_map_iff. exists v. split; [apply K; exact F|apply sorted_vals_In; eauto].
Qed.

Definition drivers_kept (s s' : Sim) : Prop :=
  forall vid v', find vid (vehicles s') = Some v' -> exists v, find vid (vehicles s) = Some v /\ v_driver v' = v_driver v.
Lemma drivers_kept_same s s' : vehicles s' = vehicles s -> drivers_kept s s'.
Proof. intros V vid v' F. rewrite V in F. eauto. Qed.
Lemma drivers_kept_trans a b c : drivers_kept a b -> drivers_kept b c -> drivers_kept a c.
Proof. intros A B vid v' F. destruct (B vid v' F) as (v1 & F1 & E1). destruct (A vid v1 F1) as (v0 & F0 & E0). exists v0. split; [exact F0|congruence]. Qed.
(* any operation other than the driver updates: its writes are `VRel` writes, which keep the driver state *)
Lemma step_op_keeps_drivers s o : (forall rt, o <> OpDrivers rt) -> vkeys s -> drivers_kept s (step_op env s o) /\ vkeys (step_op env s o).
Proof.
  intros N K. destruct (Writes_vstep env VRel VRel_id (op_writes o) _ _ _ _ _ (fun k a b => op_writes_rel o k a b N) (step_op_writes env s o) K) as (K' & V).
  split; [|exact K']. intros vid v' F. specialize (V vid). destruct (find vid (vehicles s)) as [v|]; [|congruence].
  destruct V as (v2 & F2 & St). exists v. split; [reflexivity|]. rewrite F in F2. inv F2. apply (VStar_driver _ _ St).
Qed.
Theorem other_ops_keep_drivers s o : (forall rt, o <> OpDrivers rt) -> vkeys s -> op_ok o ->
  drivers_kept s (step_op env s o) /\ vkeys (step_op env s o).
Proof. intros N K _. exact (step_op_keeps_drivers s o N K). Qed.
Lemma ops_keep_drivers ops : Forall (fun o => forall rt, o <> OpDrivers rt) ops -> forall s, vkeys s ->
  drivers_kept s (fold_left (step_op env) ops s) /\ vkeys (fold_left (step_op env) ops s).
Proof.
  induction 1 as [|o ops N _ IH]; intros s K; cbn [fold_left]; [split; [apply drivers_kept_same; reflexivity|exact K]|].
  destruct (step_op_keeps_drivers s o N K) as [D1 K1]. destruct (IH _ K1) as [D2 K2]. split; [eapply drivers_kept_trans; eauto|exact K2].
Qed.

Lemma shift_ok_kept s s' t : drivers_kept s s' -> shift_ok s t -> shift_ok s' t.
Proof. intros D H vid v' F sch a b Hs He. destruct (D vid v' F) as (v & Fv & E). rewrite E in *. eapply H; eauto. Qed.
Lemma scheds_resolve_kept s s' : drivers_kept s s' -> scheds_resolve s -> scheds_resolve s'.
Proof. intros D H vid v' sch F Hs. destruct (D vid v' F) as (v & Fv & E). rewrite E in Hs. eapply H; eauto. Qed.

(* one whole step (Update.apply_update with the controller's instruction list universally quantified): during and after the step
   every human driver's availability is the schedule's verdict at the time the step started *)
Theorem full_step_shift rt s prices rows is : vkeys s -> scheds_resolve s ->
  Forall (fun r => r_disp r = None) rows -> NoDup (map instr_vid is) ->
  let s' := full_step env rt s prices rows is in
  shift_ok s' (sim_time s) /\ vkeys s' /\ scheds_resolve s' /\ sim_time s' = sim_time s + dt s.
Proof.
  intros K R _ _. cbv zeta.
  (* the operations before the driver updates leave clock and drivers alone; the driver updates read the schedules at that time; the
     operations after them leave the drivers alone *)
  set (pre := [OpClearApplied; OpPrices prices; OpAdmit rows; OpCancel]). set (post := [OpApply is; OpUpdateVehicles; OpTick]).
  set (s4 := fold_left (step_op env) pre s).
  assert (E : full_step env rt s prices rows is = fold_left (step_op env) post (perform_driver_state_updates env rt s4)) by reflexivity.
  destruct (ops_keep_drivers pre) with (s := s) as [D4 K4]; [repeat (constructor; [discriminate|]); constructor|exact K|]. fold s4 in D4, K4.
  destruct (ops_clock env pre s) as [T4 _]. fold s4 in T4. change (ticks pre) with 0 in T4. rewrite Z.mul_0_l, Z.add_0_r in T4.
  destruct (drivers_follow_schedule rt s4 K4 (scheds_resolve_kept _ _ D4 R)) as (S5 & _ & K5 & R5). cbv zeta in S5, K5, R5. rewrite T4 in S5.
  destruct (ops_keep_drivers post) with (s := perform_driver_state_updates env rt s4) as [D8 K8]; [repeat (constructor; [discriminate|]); constructor|exact K5|].
  rewrite <- E in D8, K8. split; [eapply shift_ok_kept; eauto|]. split; [exact K8|]. split; [eapply scheds_resolve_kept; eauto|apply full_step_clock].
Qed.

(* any number of steps: during the last step (hence during every step: take prefixes) availability = verdict at that step's start *)
Definition input_ok (x : list (id * Q) * list (id * list (id * Q)) * list Request * list Instr) : Prop :=
  let '(_, _, rows, is) := x in Forall (fun r => r_disp r = None) rows /\ NoDup (map instr_vid is).
Lemma run_keeps inputs : forall s, vkeys s -> scheds_resolve s -> Forall input_ok inputs -> vkeys (run env inputs s) /\ scheds_resolve (run env inputs s).
Proof.
  induction inputs as [|[[[rt prices] rows] is] rest IH]; intros s K R Hok; cbn [run]; [auto|].
  inversion Hok as [|? ? H12 Hrest]; subst. destruct H12 as [H1 H2]. destruct (full_step_shift rt s prices rows is K R H1 H2) as (_ & K' & R' & _). apply IH; auto.
Qed.
Theorem run_shift pre rt prices rows is s : vkeys s -> scheds_resolve s -> Forall input_ok (pre ++ [(rt, prices, rows, is)]) ->
  shift_ok (run env (pre ++ [(rt, prices, rows, is)]) s) (sim_time (run env pre s)).
Proof.
  intros K R Hok. apply Forall_app in Hok. destruct Hok as [Hpre Hlast]. inversion Hlast as [|? ? H12 _]; subst. destruct H12 as [H1 H2].
  rewrite run_app. cbn [run]. destruct (run_keeps pre s K R Hpre) as [K' R'].
  apply (full_step_shift rt (run env pre s) prices rows is K' R' H1 H2).
Qed.
End S.
