(* Proofs/Energy.v — C04 (and the arithmetic half of C05): facts about the *generated* mechatronics kernels
   bev_* / ice_* / powercurve_charge of Gen/Kernels.v (and the mech_* dispatchers of Model/States.v over them),
   for every powertrain definition, level, route, charger and step length. *)
From Hive.Base Require Import Prelude.
From Hive.Model Require Import Types KernelBase States.
From Hive.Gen Require Import Kernels.
From Coq Require Import Psatz.
Local Open Scope Q_scope.

Lemma inj_nonneg t : (0 <= t)%Z -> 0 <= inject_Z t.
Proof. intro H. change 0 with (inject_Z 0). rewrite <- Zle_Qle. exact H. Qed.
Lemma inj_pos t : (0 < t)%Z -> 0 < inject_Z t.
Proof. intro H. change 0 with (inject_Z 0). rewrite <- Zlt_Qlt. exact H. Qed.

(* a rate per hour kept up for t seconds (kW x s -> kWh) *)
Definition hourly (rate : Q) (t : Z) : Q := rate * inject_Z t * (1 # 3600).
Lemma hourly_nonneg p t : 0 <= p -> (0 <= t)%Z -> 0 <= hourly p t.
Proof. intros Hp Ht. apply inj_nonneg in Ht. unfold hourly. nra. Qed.
Lemma hourly_pos p t : 0 < p -> (0 < t)%Z -> 0 < hourly p t.
Proof. intros Hp Ht. apply inj_pos in Ht. unfold hourly. nra. Qed.

(* numpy.interp over a sorted table stays inside the hull of its y values *)
Fixpoint tab_sorted (x0 : Q) (tab : list (Q * Q)) : Prop :=
  match tab with [] => True | (x1, _) :: r => x0 <= x1 /\ tab_sorted x1 r end.
Definition tab_wf (tab : list (Q * Q)) : Prop :=
  match tab with [] => True | (x0, _) :: r => tab_sorted x0 r end.
Definition tab_ge (lo : Q) (tab : list (Q * Q)) : Prop := Forall (fun xy => lo <= snd xy) tab.
Definition tab_gt (lo : Q) (tab : list (Q * Q)) : Prop := Forall (fun xy => lo < snd xy) tab.

Section Hull.
  (* P : a set of rationals that holds every point between two of its members *)
  Variable P : Q -> Prop.
  Hypothesis P_eq : Proper (Qeq ==> iff) P.
  Hypothesis P_between : forall y0 y1 lam, P y0 -> P y1 -> 0 <= lam -> lam <= 1 -> P (y0 + (y1 - y0) * lam).

  Lemma interp_from_in tab : forall x0 y0 x, P y0 -> Forall (fun xy => P (snd xy)) tab -> tab_sorted x0 tab -> x0 < x ->
    P (interp_from x0 y0 tab x).
  Proof.
    induction tab as [|[x1 y1] rest IH]; intros x0 y0 x Hy0 Hin Hs Hx; cbn [interp_from].
    - exact Hy0.
    - inversion Hin as [|? ? Hy1 Hrest]; subst. cbn in Hy1. destruct Hs as [Hs1 Hs2].
      destruct (Qleb x x1) eqn:E.
      + apply Qleb_le in E. destruct (Qeqb x1 x0); [exact Hy1|].
        apply (P_eq _ _ (Qred_correct _)). apply P_between; [exact Hy0|exact Hy1| |].
        * apply Qle_shift_div_l; lra.
        * apply Qle_shift_div_r; lra.
      + apply Qleb_gt in E. apply IH; auto.
  Qed.
  (* the empty table reads 0 everywhere *)
  Lemma interp_in tab x : (tab = [] -> P 0) -> Forall (fun xy => P (snd xy)) tab -> tab_wf tab -> P (interp tab x).
  Proof.
    intros H0 Hin Hwf. destruct tab as [|[x0 y0] rest]; cbn [interp]; [exact (H0 eq_refl)|].
    inversion Hin as [|? ? Hy0 Hrest]; subst. cbn in Hy0, Hwf.
    destruct (Qleb x x0) eqn:E; [exact Hy0|]. apply Qleb_gt in E. apply interp_from_in; auto.
  Qed.
End Hull.

Lemma between_ge lo y0 y1 lam : lo <= y0 -> lo <= y1 -> 0 <= lam -> lam <= 1 -> lo <= y0 + (y1 - y0) * lam.
Proof. nra. Qed.
Lemma interp_ge lo tab x : lo <= 0 -> tab_ge lo tab -> tab_wf tab -> lo <= interp tab x.
Proof.
  intro Hlo. apply (interp_in (Qle lo)); [exact (Qle_comp lo lo (Qeq_refl lo))|exact (between_ge lo)|intros _; exact Hlo].
Qed.
Lemma interp_gt tab x : tab <> [] -> tab_gt 0 tab -> tab_wf tab -> 0 < interp tab x.
Proof.
  intro Hne. apply (interp_in (Qlt 0)); [exact (Qlt_compat 0 0 (Qeq_refl 0))| |intro E; contradiction].
  (* a point between two positive numbers is at least the smaller of the two *)
  intros y0 y1 lam H0 H1 L0 L1. apply Qlt_le_trans with (Qmin y0 y1); [apply Q.min_glb_lt; assumption|].
  apply between_ge; [apply Q.le_min_l|apply Q.le_min_r|assumption..].
Qed.

(* TabularPowertrain.energy_cost *)
Definition route_dist (r : Route) : Q := fold_left (fun acc l => acc + l_dist l) r 0.
Definition dists_nonneg (r : Route) : Prop := Forall (fun l => 0 <= l_dist l) r.

(* a powertrain table is physical when it is a non-empty sorted table of positive consumption rates and
   the unit conversions are positive (re-established for the shipped tables by the harness every run) *)
Record train_ok (m : Mech) : Prop := {
  tr_ne : m_train m <> []; tr_pos : tab_gt 0 (m_train m); tr_wf : tab_wf (m_train m);
  tr_dconv : 0 < m_dist_conv m; tr_econv : 0 < m_energy_conv m }.

Lemma fold_sum_acc {A} (f : A -> Q) l : forall a,
  fold_left (fun acc x => acc + f x) l a == a + fold_left (fun acc x => acc + f x) l 0.
Proof.
  induction l as [|x l IH]; intro a; cbn [fold_left].
  - lra.
  - pose proof (IH (a + f x)). pose proof (IH (0 + f x)). lra.
Qed.
Lemma energy_cost_cons m l r : energy_cost m (l :: r) == link_cost m l + energy_cost m r.
Proof. unfold energy_cost. cbn [fold_left]. rewrite fold_sum_acc. lra. Qed.
Lemma route_dist_cons l r : route_dist (l :: r) == l_dist l + route_dist r.
Proof. unfold route_dist. cbn [fold_left]. rewrite fold_sum_acc. lra. Qed.

Lemma link_cost_rate m l : train_ok m -> exists k, 0 < k /\ link_cost m l == k * l_dist l.
Proof.
  intros [Hne Hp Hw Hd _]. exists (interp (m_train m) (l_speed l * m_speed_conv m) * m_dist_conv m). split.
  - apply Qmult_lt_0_compat; [apply interp_gt; assumption|exact Hd].
  - unfold link_cost. ring.
Qed.
Lemma energy_cost_sign m r : train_ok m -> dists_nonneg r ->
  0 <= energy_cost m r /\ (0 < route_dist r -> 0 < energy_cost m r).
Proof.
  intros Hm Hr. induction Hr as [|l r Hl _ [IH0 IH1]].
  - unfold energy_cost, route_dist. cbn. split; lra.
  - pose proof (energy_cost_cons m l r) as Ec. pose proof (route_dist_cons l r) as Ed.
    destruct (link_cost_rate m l Hm) as (k & Hk & Ek).
    split; [nra|]. intro Hd. destruct (Qlt_le_dec 0 (l_dist l)) as [Hl'|Hl'].
    + nra.
    + assert (H : 0 < route_dist r) by lra. specialize (IH1 H). nra.
Qed.
Lemma used_nonneg m r : train_ok m -> dists_nonneg r -> 0 <= energy_cost m r * m_energy_conv m.
Proof. intros Hm Hr. destruct (energy_cost_sign m r Hm Hr) as [H _]. pose proof (tr_econv m Hm). nra. Qed.
Lemma used_pos m r : train_ok m -> dists_nonneg r -> 0 < route_dist r -> 0 < energy_cost m r * m_energy_conv m.
Proof.
  intros Hm Hr Hd. destruct (energy_cost_sign m r Hm Hr) as [_ H]. specialize (H Hd).
  pose proof (tr_econv m Hm). nra.
Qed.

Definition energy_unchanged_except (v v' : Vehicle) : Prop :=
  v_id v' = v_id v /\ v_pos v' = v_pos v /\ v_mem v' = v_mem v /\ v_mech v' = v_mech v /\ v_gained v' = v_gained v /\
  v_state v' = v_state v /\ v_driver v' = v_driver v /\ v_balance v' = v_balance v /\ v_odo v' = v_odo v.

(* bev_consume_energy, ice_consume_energy, bev_idle and ice_idle all unfold to this, x being what the route or the idling
   asks for: take x out of the tank, stopping at empty, and book what was taken *)
Definition drain (v : Vehicle) (x : Q) : Vehicle :=
  let e := Qmax 0 (v_energy v - x) in veh_tick_energy_expended (veh_modify_energy v e) (v_energy v - e).

Lemma mech_consume_is_drain (m : Mech) v r : mech_consume m v r = drain v (energy_cost m r * m_energy_conv m).
Proof. unfold mech_consume. destruct (m_kind m); reflexivity. Qed.
Lemma mech_idle_is_drain (m : Mech) v t : mech_idle m v t = drain v (hourly (m_idle m) t).
Proof. unfold mech_idle. destruct (m_kind m); reflexivity. Qed.

Lemma drain_energy v x : v_energy (drain v x) = Qmax 0 (v_energy v - x).
Proof. reflexivity. Qed.
Lemma drain_frame v x : energy_unchanged_except v (drain v x).
Proof. repeat split. Qed.
Lemma drain_books v x : v_energy v - v_energy (drain v x) == v_expended (drain v x) - v_expended v.
Proof. cbn. lra. Qed.
Lemma drain_bounds v x : 0 <= x -> 0 <= v_energy v -> 0 <= v_energy (drain v x) <= v_energy v.
Proof. intros Hx He. rewrite drain_energy. split; [apply Q.le_max_l|apply Q.max_lub; lra]. Qed.
Lemma drain_positive v x : 0 < x -> 0 < v_energy v -> v_energy (drain v x) < v_energy v.
Proof. intros Hx He. rewrite drain_energy. apply Q.max_lub_lt; lra. Qed.

Lemma mech_consume_frame (m : Mech) v r : energy_unchanged_except v (mech_consume m v r).
Proof. rewrite mech_consume_is_drain. apply drain_frame. Qed.
Lemma mech_idle_frame (m : Mech) v t : energy_unchanged_except v (mech_idle m v t).
Proof. rewrite mech_idle_is_drain. apply drain_frame. Qed.

Section Consume.
  Variable m : Mech.
  Variable v : Vehicle.

  Lemma bev_consume_frame r : energy_unchanged_except v (bev_consume_energy m v r).
  Proof. exact (drain_frame v _). Qed.
  Lemma ice_consume_frame r : energy_unchanged_except v (ice_consume_energy m v r).
  Proof. exact (drain_frame v _). Qed.
  Lemma bev_idle_frame t : energy_unchanged_except v (bev_idle m v t).
  Proof. exact (drain_frame v _). Qed.
  Lemma ice_idle_frame t : energy_unchanged_except v (ice_idle m v t).
  Proof. exact (drain_frame v _). Qed.

  Lemma bev_consume_books r :
    v_energy v - v_energy (bev_consume_energy m v r) == v_expended (bev_consume_energy m v r) - v_expended v.
  Proof. exact (drain_books v _). Qed.
  Lemma ice_consume_books r :
    v_energy v - v_energy (ice_consume_energy m v r) == v_expended (ice_consume_energy m v r) - v_expended v.
  Proof. exact (drain_books v _). Qed.
  Lemma bev_idle_books t :
    v_energy v - v_energy (bev_idle m v t) == v_expended (bev_idle m v t) - v_expended v.
  Proof. exact (drain_books v _). Qed.
  Lemma ice_idle_books t :
    v_energy v - v_energy (ice_idle m v t) == v_expended (ice_idle m v t) - v_expended v.
  Proof. exact (drain_books v _). Qed.

  Lemma bev_consume_bounds r : train_ok m -> dists_nonneg r -> 0 <= v_energy v ->
    0 <= v_energy (bev_consume_energy m v r) <= v_energy v.
  Proof. intros Hm Hr. exact (drain_bounds v _ (used_nonneg m r Hm Hr)). Qed.
  Lemma ice_consume_bounds r : train_ok m -> dists_nonneg r -> 0 <= v_energy v ->
    0 <= v_energy (ice_consume_energy m v r) <= v_energy v.
  Proof. intros Hm Hr. exact (drain_bounds v _ (used_nonneg m r Hm Hr)). Qed.
  Lemma bev_idle_bounds t : 0 <= m_idle m -> (0 <= t)%Z -> 0 <= v_energy v ->
    0 <= v_energy (bev_idle m v t) <= v_energy v.
  Proof. intros Hi Ht. exact (drain_bounds v _ (hourly_nonneg _ t Hi Ht)). Qed.
  Lemma ice_idle_bounds t : 0 <= m_idle m -> (0 <= t)%Z -> 0 <= v_energy v ->
    0 <= v_energy (ice_idle m v t) <= v_energy v.
  Proof. intros Hi Ht. exact (drain_bounds v _ (hourly_nonneg _ t Hi Ht)). Qed.

  Lemma bev_consume_positive r : train_ok m -> dists_nonneg r -> 0 < route_dist r -> 0 < v_energy v ->
    v_energy (bev_consume_energy m v r) < v_energy v.
  Proof. intros Hm Hr Hd. exact (drain_positive v _ (used_pos m r Hm Hr Hd)). Qed.
  Lemma ice_consume_positive r : train_ok m -> dists_nonneg r -> 0 < route_dist r -> 0 < v_energy v ->
    v_energy (ice_consume_energy m v r) < v_energy v.
  Proof. intros Hm Hr Hd. exact (drain_positive v _ (used_pos m r Hm Hr Hd)). Qed.
  Lemma bev_idle_positive t : 0 < m_idle m -> (0 < t)%Z -> 0 < v_energy v ->
    v_energy (bev_idle m v t) < v_energy v.
  Proof. intros Hi Ht. exact (drain_positive v _ (hourly_pos _ t Hi Ht)). Qed.
  Lemma ice_idle_positive t : 0 < m_idle m -> (0 < t)%Z -> 0 < v_energy v ->
    v_energy (ice_idle m v t) < v_energy v.
  Proof. intros Hi Ht. exact (drain_positive v _ (hourly_pos _ t Hi Ht)). Qed.
End Consume.

Section Curve.
  Variable m : Mech.
  Hypothesis curve_nonneg : tab_ge 0 (m_curve m).
  Hypothesis curve_wf : tab_wf (m_curve m).
  Hypothesis step_pos : (0 < m_curve_step m)%Z.

  Lemma curve_loop_spec start full power dur : 0 <= power ->
    forall fuel t e r, powercurve_charge_loop fuel m start full power dur t e = Some r ->
      e <= fst r /\ fst r - e <= power * inject_Z (snd r - t) * (1 # 3600) /\
      (t <= snd r)%Z /\ ((t <= dur)%Z -> (snd r <= dur)%Z).
  Proof.
    intros Hp.
    assert (Stop : forall t e, e <= e /\ e - e <= power * inject_Z (t - t) * (1 # 3600) /\
                               (t <= t)%Z /\ ((t <= dur)%Z -> (t <= dur)%Z)).
    { intros t e. rewrite Z.sub_diag. unfold inject_Z. split; [lra|]. split; [lra|lia]. }
    induction fuel as [|fuel IH]; intros t e r H; cbn [powercurve_charge_loop] in H;
      destruct (Z.ltb t dur && Qltb e full)%bool eqn:C.
    - discriminate.
    - inv H. apply Stop.
    - apply andb_true_iff in C. destruct C as [Ct Ce]. apply Z.ltb_lt in Ct.
      apply IH in H. destruct H as (H1 & H2 & H3 & H4).
      set (sl := Z.min (m_curve_step m) (dur - t)) in *.
      assert (Hsl : (0 < sl <= dur - t)%Z) by (unfold sl; lia).
      set (rate := Qmin (interp (m_curve m) e) power) in *.
      assert (Hr : 0 <= rate <= power).
      { split; [|apply Q.le_min_r]. apply Q.min_glb; [|exact Hp]. apply interp_ge; [lra|exact curve_nonneg|exact curve_wf]. }
      pose proof (Qred_correct (e + rate * (inject_Z sl * (1 # 3600)))) as Hq.
      assert (Hs0 : 0 < inject_Z sl) by (apply inj_pos; lia).
      assert (Hsplit : inject_Z (snd r - t) == inject_Z (snd r - (t + sl)) + inject_Z sl).
      { rewrite <- inject_Z_plus. apply inject_Z_injective. lia. }
      split; [nra|]. split; [nra|]. split; [lia|]. intro. apply H4. lia.
    - inv H. apply Stop.
  Qed.

  Lemma powercurve_charge_spec start full power dur : 0 <= power -> (0 <= dur)%Z ->
    let r := powercurve_charge m start full power dur in
    start <= fst r /\ fst r - start <= hourly power dur.
  Proof.
    intros Hp Hd. unfold powercurve_charge, hourly.
    destruct (powercurve_charge_loop _ m start full power dur 0 start) as [r|] eqn:E; cbn.
    - apply (curve_loop_spec start full power dur Hp) in E. destruct E as (H1 & H2 & H3 & H4).
      specialize (H4 Hd). split; [exact H1|].
      assert (inject_Z (snd r - 0) <= inject_Z dur) by (rewrite <- Zle_Qle; lia).
      assert (0 <= inject_Z (snd r - 0)) by (apply inj_nonneg; lia). nra.
    - pose proof (hourly_nonneg power dur Hp Hd). unfold hourly in *. split; lra.
  Qed.
End Curve.

(* add_energy : clamp at capacity, book what was added, never more than the plug delivers *)
Definition plug_limit (c : Charger) (t : Z) : Q :=
  match c_etype c with
  | Electric => c_rate c * inject_Z t * (1 # 3600)      (* kW x s -> kWh *)
  | Gasoline => c_rate c * inject_Z t                    (* gal/s x s *)
  end.

Record curve_ok (m : Mech) : Prop := {
  cv_nonneg : tab_ge 0 (m_curve m); cv_wf : tab_wf (m_curve m); cv_step : (0 < m_curve_step m)%Z }.

Definition gain_frame (v v' : Vehicle) : Prop :=
  v_id v' = v_id v /\ v_pos v' = v_pos v /\ v_mem v' = v_mem v /\ v_mech v' = v_mech v /\ v_expended v' = v_expended v /\
  v_state v' = v_state v /\ v_driver v' = v_driver v /\ v_balance v' = v_balance v /\ v_odo v' = v_odo v.

Definition add_spec (m : Mech) (v : Vehicle) (c : Charger) (t : Z) (v' : Vehicle) : Prop :=
  v_energy v <= v_energy v' /\ v_energy v' <= m_cap m /\
  v_gained v' - v_gained v == v_energy v' - v_energy v /\
  v_energy v' - v_energy v <= plug_limit c t /\ gain_frame v v'.

(* what bev_add_energy and ice_add_energy do when the plug fits: raise the level to e and book the rise *)
Definition fill (v : Vehicle) (e : Q) : Vehicle := veh_tick_energy_gained (veh_modify_energy v e) (e - v_energy v).

Lemma fill_energy v e : v_energy (fill v e) = e.
Proof. reflexivity. Qed.
Lemma fill_frame v e : gain_frame v (fill v e).
Proof. repeat split. Qed.
Lemma fill_books v e : v_gained (fill v e) - v_gained v == v_energy (fill v e) - v_energy v.
Proof. cbn. lra. Qed.

Lemma add_energy_shape (m : Mech) v c t : let w := fst (mech_add_energy m v c t) in w = v \/ exists e, w = fill v e.
Proof.
  unfold mech_add_energy, bev_add_energy, ice_add_energy. destruct (m_kind m).
  - destruct (negb _); [left; reflexivity|right]. destruct (Qltb _ _); [eexists; reflexivity|].
    destruct (powercurve_charge _ _ _ _ _). eexists; reflexivity.
  - destruct (negb _); [left; reflexivity|right; eexists; reflexivity].
Qed.
Lemma mech_add_energy_frame (m : Mech) v c t : gain_frame v (fst (mech_add_energy m v c t)).
Proof. destruct (add_energy_shape m v c t) as [->|[e ->]]; [repeat split|apply fill_frame]. Qed.
Lemma mech_add_energy_gained (m : Mech) v c t : let w := fst (mech_add_energy m v c t) in
  v_gained w - v_gained v == v_energy w - v_energy v.
Proof. cbv zeta. destruct (add_energy_shape m v c t) as [->|[e ->]]; [lra|apply fill_books]. Qed.

Lemma plug_limit_nonneg c t : 0 <= c_rate c -> (0 <= t)%Z -> 0 <= plug_limit c t.
Proof.
  intros Hr Ht. unfold plug_limit. destruct (c_etype c); [exact (hourly_nonneg _ t Hr Ht)|].
  apply inj_nonneg in Ht. nra.
Qed.
Lemma add_spec_same m v c t : v_energy v <= m_cap m -> 0 <= plug_limit c t -> add_spec m v c t v.
Proof. intros Hl Hp. unfold add_spec, gain_frame. repeat split; lra. Qed.
(* y : the level the plug alone would reach *)
Lemma add_spec_fill m v c t y : v_energy v <= m_cap m -> v_energy v <= y -> y - v_energy v <= plug_limit c t ->
  add_spec m v c t (fill v (Qmin (m_cap m) y)).
Proof.
  intros Hl Hy Hp. unfold add_spec. rewrite fill_books, fill_energy.
  pose proof (Q.le_min_l (m_cap m) y). pose proof (Q.le_min_r (m_cap m) y). pose proof (Q.min_glb _ _ _ Hl Hy).
  split; [lra|]. split; [lra|]. split; [lra|]. split; [lra|apply fill_frame].
Qed.

Section Add.
  Variable m : Mech.
  Variable v : Vehicle.
  Variable c : Charger.
  Variable t : Z.
  Hypothesis t_nonneg : (0 <= t)%Z.
  Hypothesis rate_nonneg : 0 <= c_rate c.
  Hypothesis level_ok : v_energy v <= m_cap m.

  Lemma bev_add_energy_spec : curve_ok m -> add_spec m v c t (fst (bev_add_energy m v c t)).
  Proof.
    intros [Hc1 Hc2 Hc3]. pose proof (plug_limit_nonneg c t rate_nonneg t_nonneg) as Hlim. unfold bev_add_energy.
    destruct (bev_valid_charger m c) eqn:Hv; cbn [negb]; [|apply add_spec_same; assumption].
    assert (Hpl : plug_limit c t = hourly (c_rate c) t).
    { unfold plug_limit. unfold bev_valid_charger in Hv. destruct (c_etype c); [reflexivity|discriminate]. }
    rewrite Hpl in Hlim. destruct (Qltb (c_rate c) (m_taper m)).
    - apply (add_spec_fill m v c t (v_energy v + hourly (c_rate c) t)); [exact level_ok|lra|rewrite Hpl; lra].
    - pose proof (powercurve_charge_spec m Hc1 Hc2 Hc3 (v_energy v) (m_cap m - m_full_thr m) (c_rate c) t rate_nonneg t_nonneg) as Hpc.
      destruct (powercurve_charge m (v_energy v) (m_cap m - m_full_thr m) (c_rate c) t) as [ce tc]. destruct Hpc as [Hp1 Hp2].
      apply (add_spec_fill m v c t ce); [exact level_ok|exact Hp1|rewrite Hpl; exact Hp2].
  Qed.

  Lemma ice_add_energy_spec : add_spec m v c t (fst (ice_add_energy m v c t)).
  Proof.
    pose proof (plug_limit_nonneg c t rate_nonneg t_nonneg) as Hlim. unfold ice_add_energy.
    destruct (ice_valid_charger m c) eqn:Hv; cbn [negb]; [|apply add_spec_same; assumption].
    assert (Hpl : plug_limit c t = c_rate c * inject_Z t).
    { unfold plug_limit. unfold ice_valid_charger in Hv. destruct (c_etype c); [discriminate|reflexivity]. }
    rewrite Hpl in Hlim.
    apply (add_spec_fill m v c t (v_energy v + c_rate c * inject_Z t)); [exact level_ok|lra|rewrite Hpl; lra].
  Qed.
End Add.
