(* Proofs/QueueFifo.v — C18, the combined statement: within one update pass, if a vehicle u of a station's queue finds a plug of type
   (sid, cid) free at its turn, then every vehicle w processed EARLIER in the queued part that waits for that same plug type (and
   whose powertrain accepts it) is CHARGING on that plug type after its own turn — it was not left waiting.  This composes
   offered_in_queue_order (no plug count grows while the queue is processed), the invariants carried through the prefix of the
   pass (counts, places: every vehicle update is a sequence of macro steps), the frame of the prefix (a vehicle not yet processed
   still has the record it had at the start), offered_plug_is_taken (totality of the head's update) and
   offered_and_updated_leaves_queue. *)
From Hive.Base Require Import Prelude.
From Hive.Model Require Import Types KernelBase SimOps States Step.
From Hive.Gen Require Import Kernels.
From Hive.Proofs Require Import VehFrame Macro Queue CountInv PlaceInv QueueServe.
Local Open Scope Z_scope.

Section F.
Variable env : Env.
Hypothesis fence_ok : forall g, e_fence env g = true.

Theorem fifo_earlier_is_charging s l1 w l2 u l3 sid cid tw : vkeys s -> Inv_counts s -> Inv_place s ->
  queued_part s = l1 ++ w :: l2 ++ u :: l3 ->
  v_state w = ChargeQueueing sid cid tw ->
  let s_w := pass_prefix env s (other_part s ++ l1) in
  let s_u := pass_prefix env s (other_part s ++ l1 ++ w :: l2) in
  can_use env s_w w sid cid ->
  forall cs_u, slook (stations s_u) sid cid = Some cs_u -> 0 < cs_avail cs_u ->
  vstate_of (pass_prefix env s_w [w]) (v_id w) = Some (ChargingStation sid cid).
Proof.
  intros K IC IP E Ew. cbv zeta. intros Use cs_u L Pos.
  destruct (offered_in_queue_order env s l1 w l2 u l3 sid cid K IC E cs_u L Pos) as (cs_w & Lw & Pw).
  set (s_w := pass_prefix env s (other_part s ++ l1)) in *.
  (* the prefix of the pass is a sequence of macro steps, and w, not yet processed, still has its record *)
  destruct (pass_prefix_macro env s (other_part s ++ l1) (w :: l2 ++ u :: l3) K) as (M & Kw & Rest); [rewrite update_order_split, E, <- app_assoc; reflexivity|].
  pose proof (Rest w (or_introl eq_refl)) as Fw. fold s_w in M, Kw, Fw.
  destruct (mstar_invariant env Inv_counts (mstep_counts env) _ _ M K IC) as [_ ICw].
  destruct (mstar_invariant env Inv_place (mstep_place env) _ _ M K IP) as [_ IPw].
  (* the plug is free at w's turn: the queueing state is terminal *)
  assert (Tm : terminal env (v_id w) (ChargeQueueing sid cid tw) s_w = true).
  { unfold terminal. unfold slook in Lw. destruct (find sid (stations s_w)) as [st|]; [|discriminate].
    unfold has_available_charger. rewrite Lw. unfold cs_has_available_charger. apply Z.ltb_lt. exact Pw. }
  destruct (offered_plug_is_taken env fence_ok s_w (v_id w) w sid cid tw Kw ICw IPw Fw Ew Use Tm) as [s' U].
  unfold pass_prefix. cbn [fold_left]. unfold step_vehicle. cbn [fst snd]. rewrite Ew, U.
  eapply offered_and_updated_leaves_queue; eauto.
Qed.
End F.
