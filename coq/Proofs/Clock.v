(* Proofs/Clock.v — C15: the clock is advanced by tick and by nothing else; one full step adds exactly dt. *)
From Hive.Base Require Import Prelude.
From Hive.Model Require Import Types KernelBase SimOps States Step.
From Hive.Gen Require Import Kernels.
From Hive.Proofs Require Import SimFacts Writes.
Local Open Scope Z_scope.

Section S.
Variable env : Env.

(* only a tick moves the clock: of the atomic writes by `Write_clock`, hence of everything built from them *)
Lemma Writes_clock V E A (T : Prop) s s' : Writes env V E A T s s' -> dt s' = dt s /\ (T \/ sim_time s' = sim_time s).
Proof.
  apply (Writes_lift env V E A T (fun a b => dt b = dt a /\ (T \/ sim_time b = sim_time a))); [auto| |].
  - intros a b c [D1 [t|T1]] [D2 [t'|T2]]; (split; [congruence|]); auto. right. congruence.
  - intros a b W. destruct (Write_clock _ _ _ _ _ _ _ W) as [D [Tm|[t _]]]; auto.
Qed.

Lemma non_tick_clock s o : o <> OpTick -> dt (step_op env s o) = dt s /\ sim_time (step_op env s o) = sim_time s.
Proof. intro N. destruct (Writes_clock _ _ _ _ _ _ (step_op_writes env s o)) as [D [t|Tm]]; [contradiction|auto]. Qed.
Theorem step_op_clock s o :
  dt (step_op env s o) = dt s /\
  sim_time (step_op env s o) = (match o with OpTick => sim_time s + dt s | _ => sim_time s end).
Proof. destruct o; try (apply non_tick_clock; discriminate). cbn. auto. Qed.

Definition ticks (ops : list Op) : Z := Z.of_nat (length (filter (fun o => match o with OpTick => true | _ => false end) ops)).
(* any sequence of operations of the step alphabet: the clock counts the ticks and nothing else *)
Theorem ops_clock ops : forall s,
  sim_time (fold_left (step_op env) ops s) = sim_time s + ticks ops * dt s /\ dt (fold_left (step_op env) ops s) = dt s.
Proof.
  induction ops as [|o ops IH]; intro s; cbn [fold_left].
  - unfold ticks. cbn. split; [lia|reflexivity].
  - destruct (IH (step_op env s o)) as [A B]. destruct (step_op_clock s o) as [D Tm]. rewrite A, B, D, Tm.
    unfold ticks. cbn [filter]. destruct o; cbn [length]; split; try reflexivity; try lia.
Qed.
(* one Update.apply_update (with any controller output, any released rows) advances the clock by exactly dt *)
Theorem full_step_clock rt s prices rows is :
  sim_time (full_step env rt s prices rows is) = sim_time s + dt s /\ dt (full_step env rt s prices rows is) = dt s.
Proof.
  unfold full_step.
  set (ops := [OpClearApplied; OpPrices prices; OpAdmit rows; OpCancel; OpDrivers rt; OpApply is; OpUpdateVehicles; OpTick]).
  destruct (ops_clock ops s) as [A B]. assert (K : ticks ops = 1) by reflexivity. rewrite K in A. split; [lia|exact B].
Qed.

(* n steps, any inputs: sim_time = start + n * dt *)
Fixpoint run (inputs : list (list (id * Q) * list (id * list (id * Q)) * list Request * list Instr)) (s : Sim) : Sim :=
  match inputs with
  | [] => s
  | (rt, prices, rows, is) :: rest => run rest (full_step env rt s prices rows is)
  end.
Theorem run_clock inputs : forall s, sim_time (run inputs s) = sim_time s + Z.of_nat (length inputs) * dt s /\ dt (run inputs s) = dt s.
Proof.
  induction inputs as [|[[[rt prices] rows] is] rest IH]; intro s; cbn [run length].
  - split; [lia|reflexivity].
  - destruct (IH (full_step env rt s prices rows is)) as [A B]. destruct (full_step_clock rt s prices rows is) as [C D].
    rewrite A, B, C, D. split; [lia|reflexivity].
Qed.
Theorem run_app a b s : run (a ++ b) s = run b (run a s).
Proof. revert s. induction a as [|[[[rt prices] rows] is] rest IH]; intro s; cbn [run app]; [reflexivity|apply IH]. Qed.
End S.
