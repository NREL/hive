(* Proofs/Assign.v — C12: soundness of the optimality certificate (weak LP duality for the rectangular assignment
   problem) and the validity of find_assignment's glue under scipy's documented contract. *)
From Hive.Base Require Import Prelude.
From Hive.Model Require Import Dispatch.
From Coq Require Import Sorting.Permutation.
Local Open Scope Z_scope.

Lemma zsum_app a b : zsum (a ++ b) = zsum a + zsum b.
Proof. unfold zsum. induction a; cbn [app fold_right]; lia. Qed.
Lemma zsum_map_add {A} (f g : A -> Z) l : zsum (map (fun x => f x + g x) l) = zsum (map f l) + zsum (map g l).
Proof. unfold zsum. induction l; cbn [map fold_right]; lia. Qed.
Lemma zsum_map_le {A} (f g : A -> Z) l : (forall x, In x l -> f x <= g x) -> zsum (map f l) <= zsum (map g l).
Proof.
  unfold zsum. induction l as [|a l IH]; cbn [map fold_right]; intro H; [lia|].
  pose proof (H a (or_introl eq_refl)). pose proof (IH (fun x I => H x (or_intror I))). lia.
Qed.
Lemma zsum_zero {A} (l : list A) : zsum (map (fun _ => 0) l) = 0.
Proof. unfold zsum. induction l; cbn [map fold_right]; lia. Qed.
Lemma zsum_perm l1 l2 : Permutation l1 l2 -> zsum l1 = zsum l2.
Proof. unfold zsum. induction 1; cbn [fold_right]; lia. Qed.

(* a duplicate-free selection l from a duplicate-free S: S is l and the rest, in some order *)
Lemma NoDup_incl_perm {A} (l S : list A) : NoDup l -> NoDup S -> incl l S ->
  exists rest, Permutation S (l ++ rest) /\ forall x, In x rest -> In x S /\ ~ In x l.
Proof.
  revert S. induction l as [|a l IH]; intros S Nl NS Hin.
  { exists S. split; [reflexivity|]. intros x Hx. split; [exact Hx|intros []]. }
  inversion Nl as [|? ? Na Nl']; subst.
  destruct (Add_inv a S) as (S' & AD); [apply Hin; left; reflexivity|].
  apply (NoDup_Add AD) in NS. destruct NS as (NS' & NaS).
  destruct (IH S' Nl' NS' (incl_Add_inv Na Hin AD)) as (rest & P & D).
  exists rest. split; [rewrite <- (Permutation_Add AD), P; reflexivity|].
  intros x Hx. destruct (D x Hx) as (HS' & Hl). split; [apply (Add_in AD); right; exact HS'|].
  intros [<-|I]; [exact (NaS HS')|exact (Hl I)].
Qed.
Lemma zsum_select (f : nat -> Z) l S : NoDup l -> NoDup S -> incl l S ->
  exists rest, zsum (map f S) = zsum (map f l) + zsum (map f rest) /\ forall x, In x rest -> In x S /\ ~ In x l.
Proof.
  intros Nl NS Hin. destruct (NoDup_incl_perm l S Nl NS Hin) as (rest & P & D). exists rest. split; [|exact D].
  rewrite (zsum_perm _ _ (Permutation_map f P)), map_app. apply zsum_app.
Qed.
(* the selection picks up at least the total of a non-positive weight over S *)
Lemma nonpos_subset_sum (f : nat -> Z) l S : NoDup l -> NoDup S -> incl l S ->
  (forall j, In j S -> f j <= 0) -> zsum (map f S) <= zsum (map f l).
Proof.
  intros Nl NS Hin Hf. destruct (zsum_select f l S Nl NS Hin) as (rest & E & D).
  pose proof (zsum_map_le f (fun _ => 0) rest (fun j Hj => Hf j (proj1 (D j Hj)))) as R. rewrite zsum_zero in R. lia.
Qed.
(* ... and exactly the total when everything outside the selection weighs zero *)
Lemma zero_outside_sum (f : nat -> Z) l S : NoDup l -> NoDup S -> incl l S ->
  (forall j, In j S -> ~ In j l -> f j = 0) -> zsum (map f S) = zsum (map f l).
Proof.
  intros Nl NS Hin Hf. destruct (zsum_select f l S Nl NS Hin) as (rest & E & D).
  rewrite (map_ext_in f (fun _ => 0) rest), zsum_zero in E; [lia|]. intros j Hj. apply Hf; apply D, Hj.
Qed.

Definition valid_assignment (n m : nat) (sigma : list nat) : Prop :=
  length sigma = n /\ NoDup sigma /\ forall j, In j sigma -> (j < m)%nat.

Lemma combine_fst_snd {A B} : forall (a : list A) (b : list B), length a = length b ->
  map fst (combine a b) = a /\ map snd (combine a b) = b.
Proof.
  induction a as [|x a IH]; intros [|y b] H; try discriminate; [split; reflexivity|].
  destruct (IH b) as [E1 E2]; [cbn in H; lia|]. cbn. rewrite E1, E2. split; reflexivity.
Qed.
(* row potentials over the rows plus column potentials over the chosen columns *)
Lemma dual_sum (u w : list Z) sigma :
  zsum (map (fun ij => nthZ u (fst ij) + nthZ w (snd ij)) (combine (seq 0 (length sigma)) sigma))
  = zsum (map (nthZ u) (seq 0 (length sigma))) + zsum (map (nthZ w) sigma).
Proof.
  destruct (combine_fst_snd (seq 0 (length sigma)) sigma (seq_length _ _)) as [E1 E2].
  rewrite zsum_map_add, <- (map_map fst (nthZ u)), <- (map_map snd (nthZ w)), E1, E2. reflexivity.
Qed.

Lemma forallb_seq (p : nat -> bool) m : forallb p (seq 0 m) = true <-> forall j, (j < m)%nat -> p j = true.
Proof. rewrite forallb_forall. split; intros H j Hj; apply H; [apply in_seq; lia|apply in_seq in Hj; lia]. Qed.
Lemma andb_iff (a b : bool) (A B : Prop) : (a = true <-> A) -> (b = true <-> B) -> (a && b = true <-> A /\ B).
Proof. intros <- <-. apply andb_true_iff. Qed.
Lemma orb_iff (a b : bool) (A B : Prop) : (a = true <-> A) -> (b = true <-> B) -> (a || b = true <-> A \/ B).
Proof. intros <- <-. apply orb_true_iff. Qed.
Lemma existsb_eqb j l : existsb (Nat.eqb j) l = true <-> In j l.
Proof.
  rewrite existsb_exists. split; [intros (x & I & E); apply Nat.eqb_eq in E; subst; exact I|].
  intro I. exists j. split; [exact I|apply Nat.eqb_refl].
Qed.
(* what the checker checks: sigma maps the n rows into the m columns, (u, w) is dual feasible with w <= 0,
   and complementary slackness holds on sigma and on the columns sigma leaves out *)
Lemma check_cert_spec c n m sigma u w : check_cert c n m sigma u w = true <->
  length sigma = n /\ length u = n /\ length w = m /\
  (forall j, In j sigma -> (j < m)%nat) /\
  (forall i, (i < n)%nat -> forall j, (j < m)%nat -> nthZ u i + nthZ w j <= c i j) /\
  (forall j, (j < m)%nat -> nthZ w j <= 0) /\
  (forall ij, In ij (combine (seq 0 n) sigma) -> nthZ u (fst ij) + nthZ w (snd ij) = c (fst ij) (snd ij)) /\
  (forall j, (j < m)%nat -> In j sigma \/ nthZ w j = 0).
Proof.
  unfold check_cert. rewrite <- !andb_assoc. repeat apply andb_iff; try apply Nat.eqb_eq.
  - rewrite forallb_forall. split; intros H j Hj; apply Nat.ltb_lt, H, Hj.
  - rewrite forallb_seq. split; intros H i Hi; specialize (H i Hi); [rewrite forallb_seq in H|rewrite forallb_seq];
      intros j Hj; apply Z.leb_le, H, Hj.
  - rewrite forallb_seq. split; intros H j Hj; apply Z.leb_le, H, Hj.
  - rewrite forallb_forall. split; intros H ij Hij; apply Z.eqb_eq, H, Hij.
  - rewrite forallb_seq. split; intros H j Hj; apply (orb_iff _ _ _ _ (existsb_eqb j sigma) (Z.eqb_eq _ _)), H, Hj.
Qed.

(* soundness of the certificate: if the checker accepts (sigma, u, w) then no assignment of all n rows to distinct columns
   is cheaper than sigma *)
Theorem cert_sound c n m sigma u w : check_cert c n m sigma u w = true -> NoDup sigma ->
  forall sigma', valid_assignment n m sigma' -> cost c sigma <= cost c sigma'.
Proof.
  intros H Nd sigma' (L' & Nd' & R'). apply check_cert_spec in H. destruct H as (<- & _ & _ & Rg & Dual & Wn & Eq & Zr).
  assert (InclS : incl sigma (seq 0 m)) by (intros j Hj; apply in_seq; specialize (Rg j Hj); lia).
  assert (InclS' : incl sigma' (seq 0 m)) by (intros j Hj; apply in_seq; specialize (R' j Hj); lia).
  (* cost sigma = sum u + sum over ALL columns of w *)
  assert (C1 : cost c sigma = zsum (map (nthZ u) (seq 0 (length sigma))) + zsum (map (nthZ w) (seq 0 m))).
  { unfold cost. rewrite <- (map_ext_in _ _ _ Eq), dual_sum. f_equal. symmetry. apply zero_outside_sum; auto using seq_NoDup.
    intros j Hj Hn. apply in_seq in Hj. destruct (Zr j) as [I|Z0]; [lia|contradiction|exact Z0]. }
  (* cost sigma' >= sum u + sum over sigma' of w >= sum u + sum over all columns of w *)
  assert (C2 : zsum (map (nthZ u) (seq 0 (length sigma))) + zsum (map (nthZ w) sigma') <= cost c sigma').
  { rewrite <- L'. unfold cost. rewrite <- dual_sum. apply zsum_map_le. intros [i j] Hij. cbn [fst snd]. apply Dual.
    - apply in_combine_l, in_seq in Hij. lia.
    - apply in_combine_r in Hij. exact (R' j Hij). }
  assert (C3 : zsum (map (nthZ w) (seq 0 m)) <= zsum (map (nthZ w) sigma')).
  { apply nonpos_subset_sum; auto using seq_NoDup. intros j Hj. apply in_seq in Hj. apply Wn. lia. }
  lia.
Qed.

(* the glue: under scipy's documented contract the pairs are distinct vehicles x distinct requests, min(n,m) of them *)
Definition lsa_contract (lsa : nat -> nat -> matrix -> list (nat * nat)) : Prop :=
  forall n m c, let r := lsa n m c in
    NoDup (map fst r) /\ NoDup (map snd r) /\ (forall ij, In ij r -> (fst ij < n)%nat /\ (snd ij < m)%nat) /\ length r = Nat.min n m.

Section Glue.
  Variable lsa : nat -> nat -> matrix -> list (nat * nat).
  Hypothesis lsa_ok : lsa_contract lsa.

  Lemma NoDup_map_nth (l : list id) (idx : list nat) : NoDup l -> NoDup idx -> (forall i, In i idx -> (i < length l)%nat) ->
    NoDup (map (fun i => nth i l 1%positive) idx).
  Proof.
    intros Nl Ni Hr. induction idx as [|i idx IH]; cbn; constructor.
    - intro I. apply in_map_iff in I. destruct I as [k [E Hk]]. inversion Ni; subst.
      assert (k = i). { apply (proj1 (NoDup_nth l 1%positive) Nl); auto; [apply Hr; right; exact Hk|apply Hr; left; reflexivity]. }
      subst. contradiction.
    - inversion Ni; subst. apply IH; auto. intros; apply Hr; right; assumption.
  Qed.

  Theorem find_assignment_valid vs rs c : NoDup vs -> NoDup rs ->
    let sol := find_assignment lsa vs rs c in
    NoDup (map fst sol) /\ NoDup (map snd sol) /\ (forall p, In p sol -> In (fst p) vs /\ In (snd p) rs) /\
    length sol = Nat.min (length vs) (length rs).
  Proof.
    intros Nv Nr. unfold find_assignment. destruct vs as [|v0 vs']; [|destruct rs as [|r0 rs']].
    1,2: cbn; repeat split; try constructor; contradiction.
    set (vs := v0 :: vs') in *. set (rs := r0 :: rs') in *.
    destruct (lsa_ok (length vs) (length rs) c) as (N1 & N2 & R & L).
    set (r := lsa (length vs) (length rs) c) in *.
    assert (Rf : forall i, In i (map fst r) -> (i < length vs)%nat) by (intros i Hi; apply in_map_iff in Hi; destruct Hi as (ij & <- & I); apply R, I).
    assert (Rs : forall j, In j (map snd r) -> (j < length rs)%nat) by (intros j Hj; apply in_map_iff in Hj; destruct Hj as (ij & <- & I); apply R, I).
    rewrite !map_map, map_length. cbn [fst snd]. repeat split.
    - rewrite <- (map_map fst (fun i => nth i vs 1%positive)). apply NoDup_map_nth; auto.
    - rewrite <- (map_map snd (fun j => nth j rs 1%positive)). apply NoDup_map_nth; auto.
    - apply in_map_iff in H. destruct H as (ij & <- & I). apply nth_In, Rf, in_map, I.
    - apply in_map_iff in H. destruct H as (ij & <- & I). apply nth_In, Rs, in_map, I.
    - exact L.
  Qed.
End Glue.
