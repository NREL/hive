(* Proofs/Traverse.v — C06: the generated link / route traversal kernels (linktraversal.py, routetraversal.py, units.py,
   h3_ops.point_along_link) and the hand-modelled fold of routetraversal.traverse. *)
From Hive.Base Require Import Prelude.
From Hive.Model Require Import Types KernelBase SimOps States.
From Hive.Gen Require Import Kernels.
Local Open Scope Z_scope.

Section T.
Variable gc : geoid -> geoid -> Q.
Variable mid : LinkT -> Z -> geoid.

Lemma traverse_up_to_degenerate link t : l_start link = l_end link ->
  traverse_up_to gc mid link t = Ok (mkLTR None None t).
Proof. intro E. unfold traverse_up_to. cbn. rewrite E, Pos.eqb_refl. reflexivity. Qed.

(* enough time for the whole link: it is traversed completely, nothing remains, its (whole-second) travel time is consumed *)
Lemma traverse_up_to_full link t : l_start link <> l_end link -> link_travel_time_seconds link <= t ->
  traverse_up_to gc mid link t = Ok (mkLTR (Some link) None (t - link_travel_time_seconds link)).
Proof.
  intros N H. unfold traverse_up_to. cbn. apply Pos.eqb_neq in N. rewrite N. apply Z.leb_le in H. rewrite H. reflexivity.
Qed.

(* not enough time: the link is split at one point p = point_along_link; the driven piece runs start -> p, the remaining piece
   p -> end, both keep the link's id and speed, and the step's time is used up *)
Lemma traverse_up_to_partial link t : l_start link <> l_end link -> t < link_travel_time_seconds link ->
  let p := point_along_link gc mid link t in
  traverse_up_to gc mid link t =
    Ok (mkLTR (Some (mkLinkT (l_id link) (l_start link) p (gc (l_start link) p) (l_speed link)))
              (Some (mkLinkT (l_id link) p (l_end link) (gc p (l_end link)) (l_speed link))) 0).
Proof.
  intros N H. unfold traverse_up_to. cbn. apply Pos.eqb_neq in N. rewrite N. apply Z.leb_gt in H. rewrite H. reflexivity.
Qed.

(* never an error, never more time left than before, never negative when t >= 0 and the travel time is >= 0 *)
Lemma traverse_up_to_total link t : exists r, traverse_up_to gc mid link t = Ok r.
Proof. unfold traverse_up_to. cbn. destruct (Pos.eqb _ _); [|destruct (Z.leb _ _)]; eauto. Qed.
Lemma traverse_up_to_time link t r : 0 <= t -> 0 <= link_travel_time_seconds link ->
  traverse_up_to gc mid link t = Ok r -> 0 <= ltr_time r <= t.
Proof.
  intros Ht Htt. unfold traverse_up_to. cbn.
  destruct (Pos.eqb _ _); [|destruct (Z.leb_spec (link_travel_time_seconds link) t)]; intro X; injection X as <-; cbn; lia.
Qed.

(* point_along_link stays on the link: it is one of the two ends or the oracle's interior point *)
Lemma point_along_link_cases link t :
  point_along_link gc mid link t = l_start link \/ point_along_link gc mid link t = l_end link \/
  point_along_link gc mid link t = mid link t.
Proof. unfold point_along_link. cbv zeta. destruct (Qltb _ _); [auto|]. destruct (Qltb _ _); auto. Qed.

(* hours_to_seconds truncates towards zero: for a non-negative duration it never rounds up ("whole-second rounding") *)
Lemma hours_to_seconds_floor h : (0 <= h)%Q -> (inject_Z (hours_to_seconds h) <= h * 3600)%Q /\ 0 <= hours_to_seconds h.
Proof.
  intro H. unfold hours_to_seconds. cbv zeta. unfold Qtrunc.
  assert (H' : (0 <= h * (3600 # 1))%Q) by (apply Qmult_le_0_compat; [exact H|discriminate]).
  pose proof H' as H''. apply Qle_bool_iff in H''. rewrite H''. split.
  - apply Qfloor_le.
  - change 0 with (Qfloor 0). apply Qfloor_resp_le. exact H'.
Qed.
End T.

Definition dist_sum (r : Route) : Q := fold_right (fun l acc => (l_dist l + acc)%Q) 0%Q r.
Lemma dist_sum_nil : dist_sum [] = 0%Q. Proof. reflexivity. Qed.
Lemma dist_sum_cons x a : dist_sum (x :: a) = (l_dist x + dist_sum a)%Q. Proof. reflexivity. Qed.
Lemma dist_sum_app a b : (dist_sum (a ++ b) == dist_sum a + dist_sum b)%Q.
Proof.
  induction a as [|x a IH]; cbn [app].
  - rewrite dist_sum_nil. lra.
  - rewrite !dist_sum_cons. lra.
Qed.

Lemma rt_add_traversal_spec a t :
  rt_time (rt_add_traversal a t) = ltr_time t /\
  rt_exp (rt_add_traversal a t) = rt_exp a ++ (match ltr_traversed t with Some x => [x] | None => [] end) /\
  rt_rem (rt_add_traversal a t) = rt_rem a ++ (match ltr_remaining t with Some x => [x] | None => [] end) /\
  (rt_dist (rt_add_traversal a t) == rt_dist a + dist_sum (match ltr_traversed t with Some x => [x] | None => [] end))%Q.
Proof.
  unfold rt_add_traversal. cbn. split; [reflexivity|]. split; [|split].
  - destruct (ltr_traversed t); [reflexivity|symmetry; apply app_nil_r].
  - destruct (ltr_remaining t); [reflexivity|symmetry; apply app_nil_r].
  - destruct (ltr_traversed t); cbn; lra.
Qed.
Lemma rt_add_link_not_traversed_spec a l :
  rt_time (rt_add_link_not_traversed a l) = rt_time a /\ rt_exp (rt_add_link_not_traversed a l) = rt_exp a /\
  rt_rem (rt_add_link_not_traversed a l) = rt_rem a ++ [l] /\ rt_dist (rt_add_link_not_traversed a l) = rt_dist a.
Proof. unfold rt_add_link_not_traversed. cbn. auto. Qed.
Lemma rt_no_time_left_spec a : rt_no_time_left a = true <-> rt_time a = 0.
Proof.
  unfold rt_no_time_left. rewrite Qeqb_eq. unfold Qeq. cbn. lia.
Qed.

Section Fold.
Variable env : Env.

(* the driven part followed by the remaining part lists the route's link ids in route order; a link contributes its id
   0 times (degenerate link: start = end), once (driven completely, or not driven at all) or twice (the one split link) *)
Inductive Expands : Route -> list linkid -> Prop :=
| Ex_nil : Expands [] []
| Ex_cons l route ids k : Expands route ids -> (k <= 2)%nat -> Expands (route ++ [l]) (ids ++ repeat (l_id l) k).

Definition ids_of (a : RT) : list linkid := map l_id (rt_exp a) ++ map l_id (rt_rem a).
Definition tt_ok : Prop := forall l g, e_link env (l_id l) = Some g -> 0 <= link_travel_time_seconds (l <| l_speed := l_speed g |>).

(* What one step of the fold makes of link l with t seconds left: the piece driven and the piece remaining (each empty or one
   link) and the time left afterwards.  The link is driven at the speed the network's table gives for its id. *)
Inductive Pieces (t : Z) (l : LinkT) : Route -> Route -> Z -> Prop :=
| P_no_time : t = 0 -> Pieces t l [] [l] t
| P_degenerate : t <> 0 -> l_start l = l_end l -> Pieces t l [] [] t
| P_full g l' : t <> 0 -> l_start l <> l_end l -> e_link env (l_id l) = Some g -> l' = l <| l_speed := l_speed g |> ->
    link_travel_time_seconds l' <= t -> Pieces t l [l'] [] (t - link_travel_time_seconds l')
| P_split p d1 d2 s : t <> 0 -> l_start l <> l_end l ->
    Pieces t l [mkLinkT (l_id l) (l_start l) p d1 s] [mkLinkT (l_id l) p (l_end l) d2 s] 0.

Lemma traverse_step_pieces [a link a'] : traverse_step env (Ok a) link = Ok a' ->
  exists drv rem, Pieces (rt_time a) link drv rem (rt_time a') /\
    rt_exp a' = rt_exp a ++ drv /\ rt_rem a' = rt_rem a ++ rem /\ (rt_dist a' == rt_dist a + dist_sum drv)%Q.
Proof.
  intro H. cbn [traverse_step] in H. destruct (rt_no_time_left a) eqn:NT.
  - apply rt_no_time_left_spec in NT. injection H as <-. destruct (rt_add_link_not_traversed_spec a link) as (A & B & C & D).
    exists [], [link]. rewrite A, B, C, D. split; [exact (P_no_time _ _ NT)|]. split; [symmetry; apply app_nil_r|].
    split; [reflexivity|symmetry; apply Qplus_0_r].
  - assert (NT' : rt_time a <> 0) by (rewrite <- rt_no_time_left_spec; congruence).
    destruct (e_link env (l_id link)) as [g|] eqn:G; [|discriminate].
    set (l' := link <| l_speed := l_speed g |>) in H.
    destruct (traverse_up_to (e_gc env) (e_mid env) l' (rt_time a)) as [r| |] eqn:U; try discriminate.
    injection H as <-. destruct (rt_add_traversal_spec a r) as (A & B & C & D). rewrite A. do 2 eexists.
    split; [|split; [exact B|split; [exact C|exact D]]].
    destruct (Pos.eq_dec (l_start l') (l_end l')) as [E|N].
    + rewrite (traverse_up_to_degenerate _ _ _ _ E) in U. injection U as <-. apply P_degenerate; assumption.
    + destruct (Z.le_gt_cases (link_travel_time_seconds l') (rt_time a)) as [L|L].
      * rewrite (traverse_up_to_full _ _ _ _ N L) in U. injection U as <-. apply (P_full _ _ g); auto.
      * rewrite (traverse_up_to_partial _ _ _ _ N L) in U. injection U as <-. apply P_split; assumption.
Qed.

Lemma Pieces_ids [t l drv rem t'] : Pieces t l drv rem t' -> exists k, (k <= 2)%nat /\ map l_id (drv ++ rem) = repeat (l_id l) k.
Proof.
  intros [ | | g l' _ _ _ -> _ | ]; [exists 1%nat|exists 0%nat|exists 1%nat|exists 2%nat]; split; try lia; reflexivity.
Qed.
Lemma Pieces_time [t l drv rem t'] : tt_ok -> Pieces t l drv rem t' -> 0 <= t -> 0 <= t' <= t.
Proof. intros Htt [ | | g l' _ _ G -> L | ] Ht; try lia. specialize (Htt _ _ G). lia. Qed.

(* Something remains only when the time is used up.  So a piece is never driven once something remains, and
   driven ++ remaining grows at its end. *)
Definition RInv (a : RT) : Prop := rt_time a <> 0 -> rt_rem a = [].

Lemma Pieces_rinv [a l drv rem a'] : RInv a -> Pieces (rt_time a) l drv rem (rt_time a') ->
  rt_exp a' = rt_exp a ++ drv -> rt_rem a' = rt_rem a ++ rem ->
  RInv a' /\ rt_exp a' ++ rt_rem a' = (rt_exp a ++ rt_rem a) ++ drv ++ rem.
Proof.
  intros I P E R. unfold RInv. rewrite E, R.
  destruct P as [Z|NZ _|g l' NZ _ _ _ _|p d1 d2 s NZ _].
  - rewrite app_nil_r. split; [contradiction|apply app_assoc].
  - rewrite (I NZ), !app_nil_r. auto.
  - rewrite (I NZ), !app_nil_r. auto.
  - rewrite (I NZ), app_nil_r. split; [contradiction|symmetry; apply app_assoc].
Qed.

(* invariant of the fold, after the links of pre *)
Definition TInv dur (pre : Route) (a : RT) : Prop :=
  0 <= rt_time a <= dur /\ (rt_dist a == dist_sum (rt_exp a))%Q /\ RInv a /\ Expands pre (ids_of a).

Lemma traverse_step_inv dur : tt_ok -> forall pre a link a', TInv dur pre a -> traverse_step env (Ok a) link = Ok a' ->
  TInv dur (pre ++ [link]) a'.
Proof.
  intros Htt pre a link a' (Ht & Hd & I & Ex) S. destruct (traverse_step_pieces S) as (drv & rem & P & E & R & D).
  destruct (Pieces_rinv I P E R) as (I' & A). destruct (Pieces_ids P) as (k & Hk & Hids).
  pose proof (Pieces_time Htt P (proj1 Ht)) as T.
  split; [lia|]. split; [rewrite D, E, dist_sum_app, Hd; reflexivity|]. split; [exact I'|].
  unfold ids_of in *. rewrite <- map_app, A, map_app, Hids, map_app. constructor; assumption.
Qed.

Lemma traverse_fold_ok route : forall r a', fold_left (traverse_step env) route r = Ok a' -> exists a, r = Ok a.
Proof.
  induction route as [|l route IH]; intros r a' H; cbn [fold_left] in H; [eauto|].
  apply IH in H. destruct r; [eauto|destruct H; discriminate..].
Qed.

(* induction over the fold: P pre a says what holds of the accumulator a after the links of pre *)
Lemma traverse_fold_ind (P : Route -> RT -> Prop) :
  (forall pre a l a', P pre a -> traverse_step env (Ok a) l = Ok a' -> P (pre ++ [l]) a') ->
  forall route pre a a', P pre a -> fold_left (traverse_step env) route (Ok a) = Ok a' -> P (pre ++ route) a'.
Proof.
  intros Hs. induction route as [|l route IH]; intros pre a a' Hp H; cbn [fold_left] in H.
  - inv H. rewrite app_nil_r. exact Hp.
  - destruct (traverse_fold_ok _ _ _ H) as [a1 S]. rewrite S in H.
    change (l :: route) with ([l] ++ route). rewrite app_assoc. exact (IH _ _ _ (Hs _ _ _ _ Hp S) H).
Qed.

(* routetraversal.traverse over a whole route with a step of `dur` seconds *)
Theorem traverse_spec route dur tr : tt_ok -> 0 <= dur -> traverse env route dur = Ok tr ->
  0 <= rt_time tr <= dur /\                                   (* never more than the step's time is used *)
  (rt_dist tr == dist_sum (rt_exp tr))%Q /\                   (* the odometer increment is the length of the driven part *)
  (rt_rem tr <> [] -> rt_time tr = 0) /\                      (* something remains only when the time is used up *)
  (tr = rt_empty \/ Expands route (ids_of tr)).               (* driven ++ remaining = the route's links, in order *)
Proof.
  intros Htt Hd H.
  assert (tr = rt_empty \/ fold_left (traverse_step env) route (Ok (mkRT dur 0 [] [])) = Ok tr) as [->|F].
  { unfold traverse in H. destruct route as [|h t]; [|destruct (Pos.eqb _ _)]; [inv H; auto..|auto]. }
  - cbn. repeat split; try lia; try reflexivity; auto.
  - apply (traverse_fold_ind (TInv dur) (traverse_step_inv dur Htt) route []) in F.
    + destruct F as (T & D & R & Ex). repeat split; auto; try lia.
      intro N. destruct (Z.eq_dec (rt_time tr) 0) as [Z|Z]; [exact Z|contradiction (N (R Z))].
    + split; [cbn; lia|]. split; [reflexivity|]. split; [intros _; reflexivity|constructor].
Qed.
End Fold.
