(* Proofs/SimFacts.v — what each primitive write of SimOps.v changes and what it leaves alone. *)
From Hive.Base Require Import Prelude.
From Hive.Model Require Import Types KernelBase SimOps States.
From Hive.Gen Require Import Kernels.

Lemma find_add {A} k k' (x : A) m : find k (PM.add k' x m) = if Pos.eqb k k' then Some x else find k m.
Proof. unfold find. destruct (Pos.eqb_spec k k') as [->|N]; [apply PM.gss|apply PM.gso; exact N]. Qed.
Lemma find_remove {A} k k' (m : pmap A) : find k (PM.remove k' m) = if Pos.eqb k k' then None else find k m.
Proof. unfold find. destruct (Pos.eqb_spec k k') as [->|N]; [apply PM.grs|apply PM.gro; exact N]. Qed.
Definition keyed {A} (key : A -> id) (m : pmap A) : Prop := forall k x, find k m = Some x -> key x = k.
Lemma keyed_add {A} (key : A -> id) m x : keyed key m -> keyed key (PM.add (key x) x m).
Proof. intros K k y F. rewrite find_add in F. destruct (Pos.eqb_spec k (key x)) as [->|_]; [inv F; reflexivity|apply K; exact F]. Qed.

(* in each of its three branches update_entity_dicts writes the entity under its id *)
Lemma update_entity_dicts_ents {X} (geo : X -> geoid) (eid : X -> id) parent old upd ents locs srch :
  fst (fst (update_entity_dicts geo eid parent old upd ents locs srch)) = PM.add (eid upd) upd ents.
Proof. unfold update_entity_dicts. destruct (Pos.eqb _ _); [|destruct (Pos.eqb _ _)]; reflexivity. Qed.

Section S.
Variable env : Env.

Lemma modify_vehicle_spec s v s' : modify_vehicle env s v = Ok s' ->
  (exists old, find (v_id v) (vehicles s) = Some old) /\
  vehicles s' = PM.add (v_id v) v (vehicles s) /\ stations s' = stations s /\ bases s' = bases s /\ requests s' = requests s /\
  sim_time s' = sim_time s /\ dt s' = dt s /\ applied s' = applied s /\ log s' = log s.
Proof.
  unfold modify_vehicle. destruct (find (v_id v) (vehicles s)) eqn:F; [|discriminate].
  destruct (negb _); [discriminate|].
  pose proof (update_entity_dicts_ents v_geoid v_id (e_parent env) v0 v (vehicles s) (v_loc s) (v_search s)) as U.
  destruct (update_entity_dicts _ _ _ _ _ _ _ _) as [[ents locs] srch]. cbn in U. subst ents.
  intro H. injection H as <-. cbn. eauto 12.
Qed.
Lemma modify_request_spec s r s' : modify_request env s r = Ok s' ->
  (exists old, find (r_id r) (requests s) = Some old) /\
  requests s' = PM.add (r_id r) r (requests s) /\ vehicles s' = vehicles s /\ stations s' = stations s /\ bases s' = bases s /\
  sim_time s' = sim_time s /\ dt s' = dt s /\ applied s' = applied s /\ log s' = log s.
Proof.
  unfold modify_request. destruct (find (r_id r) (requests s)) eqn:F; [|discriminate].
  destruct (negb _); [discriminate|]. destruct (negb _); [discriminate|].
  pose proof (update_entity_dicts_ents r_geoid r_id (e_parent env) r0 r (requests s) (r_loc s) (r_search s)) as U.
  destruct (update_entity_dicts _ _ _ _ _ _ _ _) as [[ents locs] srch]. cbn in U. subst ents.
  intro H. injection H as <-. cbn. eauto 12.
Qed.
Lemma modify_station_spec s x s' : modify_station env s x = Ok s' ->
  (exists old, find (s_id x) (stations s) = Some old /\ s_geoid old = s_geoid x) /\
  stations s' = PM.add (s_id x) x (stations s) /\ vehicles s' = vehicles s /\ bases s' = bases s /\ requests s' = requests s /\
  sim_time s' = sim_time s /\ dt s' = dt s /\ applied s' = applied s /\ log s' = log s.
Proof.
  unfold modify_station. destruct (find (s_id x) (stations s)) eqn:F; [|discriminate].
  destruct (Pos.eqb_spec (s_geoid s0) (s_geoid x)); [|discriminate]. cbn [negb].
  destruct (negb _); [discriminate|]. intro H; injection H as <-; cbn; eauto 12.
Qed.
Lemma modify_base_spec s x s' : modify_base env s x = Ok s' ->
  (exists old, find (b_id x) (bases s) = Some old /\ b_geoid old = b_geoid x) /\
  bases s' = PM.add (b_id x) x (bases s) /\ vehicles s' = vehicles s /\ stations s' = stations s /\ requests s' = requests s /\
  sim_time s' = sim_time s /\ dt s' = dt s /\ applied s' = applied s /\ log s' = log s.
Proof.
  unfold modify_base. destruct (find (b_id x) (bases s)) eqn:F; [|discriminate].
  destruct (Pos.eqb_spec (b_geoid b) (b_geoid x)); [|discriminate]. cbn [negb].
  destruct (negb _); [discriminate|]. intro H; injection H as <-; cbn; eauto 12.
Qed.
(* conversely, a write inside the fence over a record that is there (for a station: at the same place) succeeds *)
Lemma modify_vehicle_fenced s w old : e_fence env (v_geoid w) = true -> find (v_id w) (vehicles s) = Some old -> exists s', modify_vehicle env s w = Ok s'.
Proof.
  intros Fe F. unfold modify_vehicle. rewrite F, Fe. cbn.
  destruct (update_entity_dicts v_geoid v_id (e_parent env) old w (vehicles s) (v_loc s) (v_search s)) as [[a b] c]. eauto.
Qed.
Lemma modify_station_fenced s x old : e_fence env (s_geoid x) = true -> find (s_id x) (stations s) = Some old -> s_geoid old = s_geoid x ->
  exists s', modify_station env s x = Ok s'.
Proof. intros Fe F G. unfold modify_station. rewrite F, G, Pos.eqb_refl, Fe. cbn. eauto. Qed.
Lemma remove_request_spec s k s' : remove_request env s k = Ok s' ->
  requests s' = PM.remove k (requests s) /\ vehicles s' = vehicles s /\ stations s' = stations s /\ bases s' = bases s /\
  sim_time s' = sim_time s /\ dt s' = dt s /\ applied s' = applied s /\ log s' = log s.
Proof.
  unfold remove_request. destruct (find k (requests s)); [|discriminate]. intro H; injection H as <-; cbn; auto 12.
Qed.

Lemma add_request_spec s r s' : add_request env s r = Ok s' ->
  requests s' = PM.add (r_id r) r (requests s) /\ vehicles s' = vehicles s /\ stations s' = stations s /\ bases s' = bases s /\
  sim_time s' = sim_time s /\ dt s' = dt s /\ applied s' = applied s /\ log s' = log s.
Proof.
  unfold add_request. destruct (find (r_id r) (requests s)); [intro H; apply modify_request_spec in H; tauto|].
  unfold add_request_new. destruct (negb _); [discriminate|]. intro H; inv H. cbn. auto 12.
Qed.

Lemma apply_new_vehicle_state_spec s vid st s' : apply_new_vehicle_state env s vid st = Ok s' ->
  exists v, find vid (vehicles s) = Some v /\ vehicles s' = PM.add (v_id v) (v <| v_state := st |>) (vehicles s) /\
            stations s' = stations s /\ bases s' = bases s /\ requests s' = requests s /\
            sim_time s' = sim_time s /\ dt s' = dt s /\ applied s' = applied s /\ log s' = log s.
Proof.
  unfold apply_new_vehicle_state. destruct (find vid (vehicles s)) as [v|] eqn:F; [|discriminate].
  intro H. apply modify_vehicle_spec in H. cbn in H. exists v. intuition.
Qed.
Lemma charge_unless_full_cases s vid sid cid s' : charge_unless_full env s vid sid cid = Ok s' -> s' = s \/ charge env s vid sid cid = Ok s'.
Proof.
  unfold charge_unless_full. destruct (find vid (vehicles s)) as [v|]; [|auto]. destruct (e_mech env (v_mech v)) as [m|]; [|auto].
  destruct (mech_is_full m v); [intro H; inversion H; auto|auto].
Qed.
End S.
