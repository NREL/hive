(* Proofs/QueueServe.v — C18: a freed plug is OFFERED to the vehicles of a queue in queue order.  During the update pass the queued
   vehicles are processed after all others, in (enqueue_time, id) order (Queue.v); while they are processed the number of free
   plugs of every type never grows (a queued vehicle's update either leaves the station alone or takes one plug).  Hence: if a
   vehicle finds a plug free at its turn, every vehicle processed earlier in that pass of the queue found it free at its own
   turn — an earlier vehicle stays waiting only if its own transition to charging is refused. *)
From Hive.Base Require Import Prelude.
From Hive.Model Require Import Types KernelBase SimOps States Step.
From Hive.Gen Require Import Kernels.
From Hive.Proofs Require Import SimFacts Writes Energy Counters VehFrame Atomic Trip Macro Sorted Queue Count CountInv Guards PlaceInv.
From Coq Require Import Sorting.Permutation.
Local Open Scope Z_scope.

Section Q.
Variable env : Env.

(* the two station operations and the vehicle write behind ChargeQueueing -> ChargingStation *)
Lemma exit_charge_queueing_cases sid cid s s' : exit_charge_queueing env sid cid s = Ok s' ->
  exists stn stn', find sid (stations s) = Some stn /\ dequeue_for_charger stn cid = Ok stn' /\ modify_station env s stn' = Ok s'.
Proof. unfold exit_charge_queueing. intro H. repeat dmatch H. inv H. eauto. Qed.
Lemma enter_charging_station_cases vid sid cid s s' : enter_charging_station env vid sid cid s = Ok s' ->
  exists stn stn' sa, find sid (stations s) = Some stn /\ checkout_charger stn cid = Ok stn' /\ modify_station env s stn' = Ok sa /\
    apply_new_vehicle_state env sa vid (ChargingStation sid cid) = Ok s'.
Proof. unfold enter_charging_station, rbind. intro H. repeat dmatch H. eauto 8. Qed.

(* the update of a vehicle that waits in a queue: with no plug free it waits on; otherwise it leaves the queue, takes the plug and,
   unless full, charges a first time *)
Lemma queued_update_cases vid qs qc t s s' : vkeys s -> vs_update env vid (ChargeQueueing qs qc t) s = Ok s' ->
  (terminal env vid (ChargeQueueing qs qc t) s = false /\ perform_update env vid (ChargeQueueing qs qc t) s = Ok s') \/
  (terminal env vid (ChargeQueueing qs qc t) s = true /\ exists s1 s2 v2,
     exit_charge_queueing env qs qc s = Ok s1 /\ enter_charging_station env vid qs qc s1 = Ok s2 /\ vkeys s2 /\
     find vid (vehicles s2) = Some v2 /\ v_state v2 = ChargingStation qs qc /\ (s' = s2 \/ charge env s2 vid qs qc = Ok s')).
Proof.
  intros K H. destruct (vs_update_cases env _ _ _ _ H) as [C|(Tm & nx & s2 & v2 & D & T & Fv2 & U)]; [left; exact C|right]. split; [exact Tm|].
  assert (Enx : nx = ChargingStation qs qc) by (cbn in D; repeat dmatch D; inv D; reflexivity). subst nx.
  destruct (transition_vonly env _ _ _ _ _ T K) as [K2 _].
  apply transition_ok_iff in T. destruct T as (s1 & X & N). cbn in X, N. exists s1, s2, v2.
  (* the record found after the transition is the one the entry wrote *)
  assert (Est : v_state v2 = ChargingStation qs qc).
  { destruct (enter_charging_station_cases _ _ _ _ _ N) as (_ & _ & sa & _ & _ & _ & W). apply apply_new_vehicle_state_spec in W.
    destruct W as (x & Fx & Vx & _). pose proof Fv2 as F2. rewrite Vx, find_add in F2.
    destruct (Pos.eqb_spec vid (v_id x)) as [_|Ne]; [inv F2; reflexivity|]. rewrite Fx in F2. inv F2. destruct Ne. symmetry. apply K2. exact Fv2. }
  rewrite Est in U. cbn [perform_update] in U. apply charge_unless_full_cases in U. auto 8.
Qed.

Definition noninc (s s' : Sim) : Prop := skeys (stations s) -> skeys (stations s') /\
  forall sid cid cs', slook (stations s') sid cid = Some cs' -> exists cs, slook (stations s) sid cid = Some cs /\ cs_avail cs' <= cs_avail cs.
Lemma noninc_same s s' : stations s' = stations s -> noninc s s'.
Proof. intros E SK. rewrite E. split; [exact SK|]. intros sid cid cs L. exists cs. split; [exact L|lia]. Qed.
Lemma noninc_trans a b c : noninc a b -> noninc b c -> noninc a c.
Proof.
  intros A B SK. destruct (A SK) as [SKb Ab]. destruct (B SKb) as [SKc Bc]. split; [exact SKc|]. intros sid cid cs L.
  destruct (Bc _ _ _ L) as (c1 & L1 & H1). destruct (Ab _ _ _ L1) as (c0 & L0 & H0). exists c0. split; [exact L0|lia].
Qed.

Lemma station_op_noninc upd da dq op s sid0 stn cid0 stn' s' : (upd = station_state_update \/ upd = station_state_optional_update) ->
  counter_move da dq op -> da <= 0 -> find sid0 (stations s) = Some stn -> upd stn cid0 op = Ok stn' ->
  modify_station env s stn' = Ok s' -> noninc s s'.
Proof.
  intros Hupd Hop Hda F U M SK. destruct (station_op_effect upd da dq op (stations s) sid0 stn cid0 stn' Hupd Hop SK F U) as (Hid & _ & Eff).
  apply modify_station_spec in M. destruct M as (_ & S & _). rewrite Hid in S. rewrite S. split; [rewrite <- Hid; apply skeys_add; exact SK|].
  intros sid cid cs' L. destruct (Eff _ _ _ L) as (cs & L0 & _ & A & _). exists cs. split; [exact L0|].
  rewrite A. destruct (Pos.eqb sid0 sid && Pos.eqb cid0 cid); cbn [b2z]; lia.
Qed.
Lemma charge_noninc s vid sid cid s' : charge env s vid sid cid = Ok s' -> noninc s s'.
Proof.
  intros H SK. destruct (charge_ledger env _ _ _ _ _ H) as (v & st & m & c & v1 & _ & Fs & _ & _ & _ & L). cbv zeta in L. destruct L as (_ & S & _).
  destruct (charged_station_sim st (tariff_price st cid (v_energy v1 - v_energy v)%Q) (c_etype c) (v_energy v1 - v_energy v)%Q) as (Hid & _).
  rewrite S. split; [apply skeys_add; exact SK|]. rewrite Hid, (SK _ _ Fs).
  intros sd cd cs' Lk. rewrite (slook_add_same (stations s) sid st _ sd cd Fs) in Lk; [exists cs'; split; [exact Lk|lia]|].
  destruct (c_etype c); reflexivity.
Qed.
Lemma queued_update_noninc vid qs qc t s s' : vkeys s -> vs_update env vid (ChargeQueueing qs qc t) s = Ok s' -> noninc s s'.
Proof.
  intros K H. destruct (queued_update_cases _ _ _ _ _ _ K H) as [[_ P]|(_ & s1 & s2 & v2 & X & N & _ & _ & _ & C)].
  - cbn [perform_update] in P. repeat dmatch P. apply modify_vehicle_spec in P. apply noninc_same, P.
  - destruct (exit_charge_queueing_cases _ _ _ _ X) as (stn & stn' & F & R & M).
    destruct (enter_charging_station_cases _ _ _ _ _ N) as (stn1 & stn1' & sa & F1 & R1 & M1 & W).
    apply apply_new_vehicle_state_spec in W. destruct W as (_ & _ & _ & Sx & _).
    eapply noninc_trans; [apply (station_op_noninc station_state_update 0 (-1) _ s qs stn qc stn' s1 (or_introl eq_refl) move_dequeue); [lia|assumption..]|].
    eapply noninc_trans; [apply (station_op_noninc station_state_optional_update (-1) 0 _ s1 qs stn1 qc stn1' sa (or_intror eq_refl) move_checkout); [lia|assumption..]|].
    eapply noninc_trans; [apply noninc_same; exact Sx|]. destruct C as [->|C]; [apply noninc_same; reflexivity|eapply charge_noninc; exact C].
Qed.
(* the update pass: the state in which the k-th vehicle of the processing order is updated *)
Definition pass_prefix (s : Sim) (l : list Vehicle) : Sim := fold_left (fun acc v => step_vehicle env acc (v_id v, v_state v)) l s.
Lemma pass_prefix_app s l1 l2 : pass_prefix s (l1 ++ l2) = pass_prefix (pass_prefix s l1) l2.
Proof. apply fold_left_app. Qed.
Lemma queued_pass_noninc (l : list Vehicle) : (forall v, In v l -> is_queueing (v_state v) = true) -> forall s, vkeys s -> noninc s (pass_prefix s l).
Proof.
  intros Hq s K. unfold pass_prefix. eapply proj2, (fold_invariant (fun a => vkeys a /\ noninc s a)); [|split; [exact K|apply noninc_same; reflexivity]].
  intros a v Iv [Ka Na]. split; [apply (step_vehicle_vonly env a (v_id v) (v_state v) Ka)|]. eapply noninc_trans; [exact Na|].
  pose proof (Hq v Iv) as Q. destruct (v_state v); try discriminate Q. unfold step_vehicle. cbn [fst snd].
  destruct (vs_update env (v_id v) (ChargeQueueing sid cid enqueue_time) a) eqn:E; try (apply noninc_same; reflexivity). eapply queued_update_noninc; eauto.
Qed.
(* a prefix of the pass is a sequence of macro steps, and the vehicles still to come have the records they started with *)
Lemma pass_prefix_macro s pre post : vkeys s -> update_order s = pre ++ post ->
  MStar env s (pass_prefix s pre) /\ vkeys (pass_prefix s pre) /\ forall v, In v post -> find (v_id v) (vehicles (pass_prefix s pre)) = Some v.
Proof.
  intros K E. pose proof (update_order_ids_NoDup s K) as Nd. rewrite E, map_app in Nd. apply NoDup_app_inv in Nd. destruct Nd as [Nd Fresh].
  assert (St : forall v, In v (pre ++ post) -> find (v_id v) (vehicles s) = Some v).
  { intros v I. rewrite <- E in I. apply (Permutation_in _ (update_order_perm s)), sorted_vals_In in I. destruct I as [k F]. rewrite (K _ _ F). exact F. }
  unfold pass_prefix. rewrite fold_step_vehicle_map. split; [|split].
  1, 2: apply fold_vehicles_macro; [rewrite map_map; exact Nd|exact K|].
  1, 2: intros vs I; apply in_map_iff in I; destruct I as (x & <- & Ix); apply vstate_of_Some; exists x; split; [apply St, in_or_app; auto|reflexivity].
  intros v I. rewrite <- (St v) by (apply in_or_app; auto). apply (fold_untouched fst); [intros a [k st]; apply step_vehicle_vonly| |exact K].
  rewrite map_map. apply Fresh, in_map, I.
Qed.

(* FIFO offer: w before u in the queued part; if u finds a plug of type (sid, cid) free at its turn, so did w at its turn *)
Theorem offered_in_queue_order s l1 w l2 u l3 sid cid : vkeys s -> Inv_counts s ->
  queued_part s = l1 ++ w :: l2 ++ u :: l3 ->
  let s_w := pass_prefix s (other_part s ++ l1) in
  let s_u := pass_prefix s (other_part s ++ l1 ++ w :: l2) in
  forall cs_u, slook (stations s_u) sid cid = Some cs_u -> 0 < cs_avail cs_u ->
  exists cs_w, slook (stations s_w) sid cid = Some cs_w /\ 0 < cs_avail cs_w.
Proof.
  intros K IC E. cbv zeta. intros cs_u L Pos. rewrite app_assoc, pass_prefix_app in L. set (s_w := pass_prefix s (other_part s ++ l1)) in *.
  (* the pass so far keeps the counts invariant, hence the station keys *)
  destruct (pass_prefix_macro s (other_part s ++ l1) (w :: l2 ++ u :: l3) K) as (M & Kw & _); [rewrite update_order_split, E, <- app_assoc; reflexivity|].
  destruct (mstar_invariant env Inv_counts (mstep_counts env) _ _ M K IC) as [_ (SKw & _)].
  destruct (queued_pass_noninc (w :: l2)) with (s := s_w) as [_ N]; [|exact Kw|exact SKw|].
  - intros x Ix. apply (queued_part_In s x). rewrite E. apply in_or_app. right. destruct Ix as [<-|Ix]; [left; reflexivity|right; apply in_or_app; left; exact Ix].
  - destruct (N _ _ _ L) as (cs_w & Lw & Le). exists cs_w. split; [exact Lw|lia].
Qed.

(* ... and a vehicle that is offered the plug and whose update goes through has left the queue: it is charging *)
Theorem offered_and_updated_leaves_queue vid qs qc t s s' : vkeys s -> terminal env vid (ChargeQueueing qs qc t) s = true ->
  vs_update env vid (ChargeQueueing qs qc t) s = Ok s' -> vstate_of s' vid = Some (ChargingStation qs qc).
Proof.
  intros K Tm H. destruct (queued_update_cases _ _ _ _ _ _ K H) as [[Tf _]|(_ & s1 & s2 & v2 & _ & _ & K2 & Fv2 & Est & C)]; [congruence|].
  apply vstate_of_Some. destruct C as [->|Hc]; [eauto|].
  (* the charge writes the vehicle's record with energy added and the price paid: the state is kept *)
  destruct (charge_ledger env _ _ _ _ _ Hc) as (v0 & st & m & c & v1 & Fv0 & _ & _ & _ & -> & L). cbv zeta in L. destruct L as (V & _).
  rewrite Fv2 in Fv0. inv Fv0. eexists. rewrite V, find_add. cbn [v_id veh_send_payment set]. rewrite mech_add_energy_id, (K2 _ _ Fv2), Pos.eqb_refl.
  split; [reflexivity|]. cbn. etransitivity; [apply mech_add_energy_frame|exact Est].
Qed.

(* the head of the queue is served: its update cannot be refused when a plug of its type is free *)
Section Total.
Hypothesis fence_ok : forall g, e_fence env g = true.

Lemma modify_station_total s x old : find (s_id x) (stations s) = Some old -> s_geoid old = s_geoid x -> exists s', modify_station env s x = Ok s'.
Proof. apply modify_station_fenced, fence_ok. Qed.
Lemma modify_vehicle_total s w old : find (v_id w) (vehicles s) = Some old -> exists s', modify_vehicle env s w = Ok s'.
Proof. apply modify_vehicle_fenced, fence_ok. Qed.
Lemma valid_charger_etype m c : mech_valid_charger m c = true -> etype_eqb (c_etype c) (mech_etype m) = true.
Proof. unfold mech_valid_charger, mech_etype, bev_valid_charger, ice_valid_charger. destruct (m_kind m); auto. Qed.

(* leaving the queue goes through when the station counts somebody as queued *)
Lemma exit_charge_queueing_total s qs qc stn cs : find qs (stations s) = Some stn -> s_id stn = qs -> find qc (s_state stn) = Some cs -> 1 <= cs_enq cs ->
  exists s1, exit_charge_queueing env qs qc s = Ok s1 /\ vehicles s1 = vehicles s /\
    stations s1 = PM.add qs (stn <| s_state := PM.add qc (cs <| cs_enq := cs_enq cs - 1 |>) (s_state stn) |>) (stations s).
Proof.
  intros Fs Hsid Fc Enq. unfold exit_charge_queueing, dequeue_for_charger, station_state_update, cs_decrement_enqueued. rewrite Fs, Fc.
  destruct (Z.eqb_spec (cs_enq cs) 0) as [Z0|_]; [lia|].
  destruct (modify_station_total s (stn <| s_state := PM.add qc (cs <| cs_enq := cs_enq cs - 1 |>) (s_state stn) |>) stn) as [s1 M]; [cbn; rewrite Hsid; exact Fs|reflexivity|].
  rewrite M. exists s1. split; [reflexivity|]. apply modify_station_spec in M. cbn in M. rewrite Hsid in M. intuition.
Qed.
(* taking a plug goes through for a vehicle at the station, with access to it, whose powertrain accepts the plug type, when one is free *)
Lemma enter_charging_station_total s vid v qs qc stn cs m : find vid (vehicles s) = Some v -> v_id v = vid -> e_mech env (v_mech v) = Some m ->
  find qs (stations s) = Some stn -> s_id stn = qs -> v_geoid v = s_geoid stn -> grants (s_mem stn) v ->
  find qc (s_state stn) = Some cs -> mech_valid_charger m (cs_charger cs) = true -> 0 < cs_avail cs ->
  exists s2 stn2, enter_charging_station env vid qs qc s = Ok s2 /\ find vid (vehicles s2) = Some (v <| v_state := ChargingStation qs qc |>) /\
    find qs (stations s2) = Some stn2 /\ s_id stn2 = qs /\ get_charger_instance stn2 qc = Ok (cs_charger cs).
Proof.
  intros Fv Hid Em Fs Hsid Geo Acc Fc Use Av. unfold enter_charging_station. rewrite Fv, Fs, Em, Geo, Pos.eqb_refl. unfold grants in Acc. rewrite Acc. cbn [negb].
  unfold get_charger_instance at 1. rewrite Fc, Use. cbn [negb]. unfold rbind, checkout_charger, station_state_optional_update. rewrite Fc.
  rewrite (proj2 (cs_has_available_spec cs) Av). cbn [negb]. unfold cs_decrement_available. destruct (Z.eqb_spec (cs_avail cs) 0) as [Z0|_]; [lia|].
  set (stn2 := stn <| s_state := PM.add qc (cs <| cs_avail := cs_avail cs - 1 |>) (s_state stn) |>).
  destruct (modify_station_total s stn2 stn) as [sa Ma]; [cbn; rewrite Hsid; exact Fs|reflexivity|].
  change (set cs_avail (fun _ => cs_avail cs - 1) cs) with (cs <| cs_avail := cs_avail cs - 1 |>). fold stn2. rewrite Ma.
  pose proof (modify_station_spec env _ _ _ Ma) as (_ & Sa & Va & _). cbn in Sa. rewrite Hsid in Sa.
  unfold apply_new_vehicle_state. rewrite Va, Fv.
  destruct (modify_vehicle_total sa (v <| v_state := ChargingStation qs qc |>) v) as [s2 Mv]; [cbn; rewrite Hid, Va; exact Fv|].
  rewrite Mv. exists s2, stn2. split; [reflexivity|].
  pose proof (modify_vehicle_spec env _ _ _ Mv) as (_ & V2 & S2 & _). cbn in V2. rewrite Hid in V2.
  rewrite V2, S2, Sa, !find_add, !Pos.eqb_refl. repeat split; [exact Hsid|].
  unfold get_charger_instance, stn2. cbn. rewrite find_add, Pos.eqb_refl. reflexivity.
Qed.
(* the first charge goes through on a plug the powertrain accepts *)
Lemma charge_unless_full_total s vid v qs qc stn c m : find vid (vehicles s) = Some v -> v_id v = vid -> e_mech env (v_mech v) = Some m ->
  find qs (stations s) = Some stn -> s_id stn = qs -> get_charger_instance stn qc = Ok c -> mech_valid_charger m c = true ->
  exists s', charge_unless_full env s vid qs qc = Ok s'.
Proof.
  intros Fv Hid Em Fs Hsid Ch Use. unfold charge_unless_full. rewrite Fv, Em. destruct (mech_is_full m v) eqn:Full; [eauto|].
  unfold charge. rewrite Fs, Fv, Em, Ch, Full, (valid_charger_etype m c Use). cbn [negb].
  destruct (mech_add_energy m v c (dt s)) as [charged tsec] eqn:Add.
  assert (Hc : v_id charged = vid) by (rewrite <- Hid, <- (mech_add_energy_id m v c (dt s)), Add; reflexivity).
  match goal with |- exists s', match modify_vehicle env s ?w with _ => _ end = Ok s' =>
    destruct (modify_vehicle_total s w v) as [s3 M3]; [cbn; rewrite Hc; exact Fv|]; rewrite M3 end.
  pose proof (modify_vehicle_spec env _ _ _ M3) as (_ & _ & S3 & _).
  match goal with |- exists s', modify_station env ?sx ?x = Ok s' => apply (modify_station_total sx x stn) end.
  - cbn [emit stations set]. rewrite S3. destruct (c_etype c); cbn; rewrite Hsid; exact Fs.
  - destruct (c_etype c); reflexivity.
Qed.

Definition can_use (s : Sim) (v : Vehicle) (qs qc : id) : Prop :=
  exists m, e_mech env (v_mech v) = Some m /\
    forall stn c, find qs (stations s) = Some stn -> get_charger_instance stn qc = Ok c -> mech_valid_charger m c = true.

Theorem offered_plug_is_taken s vid v qs qc t : vkeys s -> Inv_counts s -> Inv_place s ->
  find vid (vehicles s) = Some v -> v_state v = ChargeQueueing qs qc t -> can_use s v qs qc ->
  terminal env vid (ChargeQueueing qs qc t) s = true ->
  exists s', vs_update env vid (ChargeQueueing qs qc t) s = Ok s'.
Proof.
  intros K IC IP Fv Est (m & Em & Use) Tm. pose proof IC as (SK & _ & CS & _). destruct IP as (_ & _ & PL).
  assert (Hid : v_id v = vid) by (apply K; exact Fv).
  pose proof (PL _ _ Fv) as P. unfold placed in P. rewrite Est in P. destruct P as (stn & Fs & Geo & Acc).
  assert (Hsid : s_id stn = qs) by (apply SK; exact Fs).
  cbn in Tm. rewrite Fs in Tm. unfold has_available_charger in Tm. destruct (find qc (s_state stn)) as [cs|] eqn:Fc; [|discriminate].
  assert (Uc : mech_valid_charger m (cs_charger cs) = true) by (apply (Use stn); [exact Fs|unfold get_charger_instance; rewrite Fc; reflexivity]).
  (* the station counts the vehicle among the queued *)
  assert (Enq : 1 <= cs_enq cs).
  { destruct (CS qs qc cs) as (_ & _ & ->); [unfold slook; rewrite Fs; exact Fc|]. apply (cnt_member _ v _ vid Fv).
    unfold queues. rewrite Est. cbn. rewrite !Pos.eqb_refl. reflexivity. }
  unfold vs_update. cbn [terminal default_terminal_state]. rewrite Fv, Fs. unfold has_available_charger. rewrite Fc, Tm. cbn [negb].
  (* leave the queue, take the plug, charge *)
  destruct (exit_charge_queueing_total s qs qc stn cs Fs Hsid Fc Enq) as (s1 & X & V1 & S1).
  destruct (enter_charging_station_total s1 vid v qs qc (stn <| s_state := PM.add qc (cs <| cs_enq := cs_enq cs - 1 |>) (s_state stn) |>)
              (cs <| cs_enq := cs_enq cs - 1 |>) m) as (s2 & stn2 & N & Fv2 & Fs2 & Hs2 & Ch2); try assumption.
  { rewrite V1. exact Fv. }
  { rewrite S1, find_add, Pos.eqb_refl. reflexivity. }
  { apply PM.gss. }
  { apply cs_has_available_spec. exact Tm. }
  rewrite (proj2 (transition_ok_iff env s _ _ s2)) by eauto. rewrite Fv2. cbn [v_state set perform_update].
  apply (charge_unless_full_total s2 vid (v <| v_state := ChargingStation qs qc |>) qs qc stn2 (cs_charger cs) m); assumption.
Qed.
End Total.
End Q.
