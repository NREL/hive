(* Common imports, the three-valued result type mirroring HIVE's
   (None, x) / (None, None) / (err, None) convention, Q helpers, sorted id sets, the model's sort and the inv / dmatch tactics. *)
From Coq Require Export ZArith QArith Qminmax Qround Qabs List Bool Lia Lqa PArith FMapPositive.
From RecordUpdate Require Export RecordSet.
Export ListNotations.
Export RecordSetNotations.

Module PM := PositiveMap.
Definition id := positive.
Definition pmap := PositiveMap.t.

Inductive res (A : Type) : Type :=
| Ok (a : A)     (* (None, x)      *)
| Reject         (* (None, None)   *)
| Err.           (* (error, None)  *)
Arguments Ok {A} a.
Arguments Reject {A}.
Arguments Err {A}.

Definition rbind {A B} (r : res A) (f : A -> res B) : res B :=
  match r with Ok a => f a | Reject => Reject | Err => Err end.
Notation "'do' x <- r ; k" := (rbind r (fun x => k))
  (at level 200, x pattern, r at level 100, k at level 200, right associativity).

Definition is_ok {A} (r : res A) : bool := match r with Ok _ => true | _ => false end.

Definition Qltb (a b : Q) : bool := negb (Qle_bool b a).
Definition Qleb (a b : Q) : bool := Qle_bool a b.
Definition Qeqb (a b : Q) : bool := Qeq_bool a b.

Lemma Qleb_le a b : Qleb a b = true <-> (a <= b)%Q.
Proof. apply Qle_bool_iff. Qed.
Lemma Qleb_gt a b : Qleb a b = false <-> (b < a)%Q.
Proof.
  unfold Qleb. split; intro H.
  - apply Qnot_le_lt. intro H'. apply Qle_bool_iff in H'. congruence.
  - destruct (Qle_bool a b) eqn:E; auto. apply Qle_bool_iff in E. exfalso. apply (Qlt_not_le _ _ H E).
Qed.
Lemma Qltb_lt a b : Qltb a b = true <-> (a < b)%Q.
Proof.
  unfold Qltb. rewrite negb_true_iff. apply Qleb_gt.
Qed.
Lemma Qltb_ge a b : Qltb a b = false <-> (b <= a)%Q.
Proof.
  unfold Qltb. rewrite negb_false_iff. apply Qleb_le.
Qed.
Lemma Qeqb_eq a b : Qeqb a b = true <-> (a == b)%Q.
Proof. apply Qeq_bool_iff. Qed.

(* int(x) for x >= 0 : Python truncation toward zero; for negative x Python
   truncates toward zero as well, so we model it faithfully for both signs. *)
Definition Qtrunc (x : Q) : Z :=
  if Qle_bool 0 x then Qfloor x else Qceiling x.

(* sorted sets of positives (model of frozenset[str], canonical) *)
Fixpoint sins (x : positive) (l : list positive) : list positive :=
  match l with
  | [] => [x]
  | y :: t => match Pos.compare x y with
              | Lt => x :: l
              | Eq => l
              | Gt => y :: sins x t
              end
  end.
Fixpoint srem (x : positive) (l : list positive) : list positive :=
  match l with
  | [] => []
  | y :: t => if Pos.eqb x y then srem x t else y :: srem x t
  end.
Definition smem (x : positive) (l : list positive) : bool := existsb (Pos.eqb x) l.
Definition sinter (a b : list positive) : list positive := filter (fun x => smem x b) a.

Lemma smem_In x l : smem x l = true <-> In x l.
Proof.
  unfold smem. rewrite existsb_exists. split.
  - intros [y [Hy He]]. apply Pos.eqb_eq in He. subst. auto.
  - intro H. exists x. split; auto. apply Pos.eqb_refl.
Qed.
Lemma sins_In x y l : In y (sins x l) <-> y = x \/ In y l.
Proof.
  induction l as [|z t IH]; simpl.
  - intuition.
  - destruct (Pos.compare_spec x z); simpl.
    + subst. intuition.
    + intuition.
    + rewrite IH. intuition.
Qed.
Lemma srem_In x y l : In y (srem x l) <-> y <> x /\ In y l.
Proof.
  induction l as [|z t IH]; simpl.
  - intuition.
  - destruct (Pos.eqb_spec x z); simpl.
    + subst. rewrite IH. intuition congruence.
    + rewrite IH. intuition congruence.
Qed.

Definition nilb {A} (l : list A) : bool := match l with [] => true | _ => false end.

(* insertion sort (stable); Python's sorted() on an injective key *)
Fixpoint insert_by {A} (le : A -> A -> bool) (x : A) (l : list A) : list A :=
  match l with
  | [] => [x]
  | y :: t => if le x y then x :: l else y :: insert_by le x t
  end.
Definition sort_by {A} (le : A -> A -> bool) (l : list A) : list A := fold_right (insert_by le) [] l.

(* PositiveMap.elements enumerates in *bitwise* key order; Python code sorts ids, so the model
   sorts the bindings numerically (ids are interned in string order by the harness). *)
Definition sorted_elements {A} (m : pmap A) : list (positive * A) :=
  sort_by (fun a b => Pos.leb (fst a) (fst b)) (PM.elements m).
Definition sorted_vals {A} (m : pmap A) : list A := map snd (sorted_elements m).
Definition sorted_keys {A} (m : pmap A) : list positive := map fst (sorted_elements m).

Ltac inv H := inversion H; subst; clear H.
(* destruct the innermost scrutinee of a match / if in hypothesis H, dropping impossible branches *)
Ltac dmatch H :=
  match type of H with
  | context [match ?x with _ => _ end] =>
      lazymatch x with
      | context [match _ with _ => _ end] => fail
      | _ => let E := fresh "E" in destruct x eqn:E; try discriminate
      end
  end.
